(* CollectProofs.v — containment of broken docstrings in parse_docstr_examples (C14)
   and the shape of what each style yields (C07). *)
From XD Require Import Model.Collect.
Open Scope N_scope.

(* What google-style collection is specified by: the blocks before the first one that fails to parse (good_prefix),
   numbered in order, each starting on the line after its tag (number_from). *)
Fixpoint good_prefix (bs : list gblock) : list gblock :=
  match bs with
  | b :: r => match gb_parse b with None => b :: good_prefix r | Some _ => [] end
  | [] => []
  end.

Fixpoint number_from (n : nat) (bs : list gblock) : list ex_info :=
  match bs with
  | [] => []
  | b :: r => mkEx n (gb_offset b + 1) :: number_from (S n) r
  end.

Lemma google_go_spec bs : forall n,
  g_items (google_go bs n) = number_from n (good_prefix bs) /\
  (g_raise (google_go bs n) = None <-> good_prefix bs = bs).
Proof.
  induction bs as [|b r IH]; intros n; simpl; [tauto|].
  destruct (gb_parse b) eqn:P; simpl; [split; [reflexivity | split; discriminate]|].
  destruct (IH (S n)) as [A B]. rewrite A, B. split; [reflexivity|]. split; [intros -> | intros [= ->]]; reflexivity.
Qed.

Lemma good_prefix_spec bs b : In b (good_prefix bs) -> In b bs /\ gb_parse b = None.
Proof.
  induction bs as [|x r IH]; simpl; [tauto|].
  destruct (gb_parse x) eqn:P; [simpl; tauto|]. intros [<-|H]; [tauto | apply IH in H; tauto].
Qed.

Lemma number_from_nums n bs : map e_num (number_from n bs) = seq n (length bs).
Proof. revert n. induction bs as [|b r IH]; intros n; simpl; [reflexivity | rewrite IH; reflexivity]. Qed.

Lemma google_raise_class bs : forall n e, g_raise (google_go bs n) = Some e -> exists b, In b bs /\ gb_parse b = Some e.
Proof.
  induction bs as [|b r IH]; intros n e; simpl; [discriminate|].
  destruct (gb_parse b) eqn:P; simpl.
  - intros [= <-]. exists b. split; [left; reflexivity | exact P].
  - intros H. destruct (IH _ _ H) as (b' & A & B). exists b'. split; [right; exact A | exact B].
Qed.

Definition OnlyParseErrors (split : option (list gblock)) (parsed : pexn + list fitem) : Prop :=
  (forall bs b, split = Some bs -> In b bs -> gb_parse b <> Some PX_other) /\ parsed <> inl PX_other.

Lemma style_raise_not_other st split parsed :
  OnlyParseErrors split parsed -> g_raise (style_examples st split parsed) <> Some PX_other.
Proof.
  intros [HG HF].
  assert (G : g_raise (google_examples split) <> Some PX_other).
  { unfold google_examples. destruct split as [bs|]; [|simpl; discriminate].
    intros X. destruct (google_raise_class _ _ _ X) as (b & A & B). apply filter_In in A.
    exact (HG bs b eq_refl (proj1 A) B). }
  assert (F : g_raise (freeform_examples parsed) <> Some PX_other).
  { unfold freeform_examples. destruct parsed as [e|items].
    - simpl. intros X. apply HF. inversion X. reflexivity.
    - destruct (freeform_go items false false 0 0) as [off kept]. destruct (Nat.eqb kept 0); simpl; discriminate. }
  destruct st; simpl; try assumption.
  unfold auto_examples. destruct (g_items (google_examples split)); assumption.
Qed.

(* what the generator yielded before it raised is kept *)
Theorem contained_examples g : c_examples (contain g) = g_items g.
Proof. unfold contain. destruct (g_raise g) as [[| |]|]; reflexivity. Qed.

Theorem google_examples_spec bs :
  let ex := filter gb_is_example bs in
  g_items (google_examples (Some bs)) = number_from 0 (good_prefix ex) /\
  map e_num (g_items (google_examples (Some bs))) = seq 0 (length (good_prefix ex)) /\
  (forall b, In b (good_prefix ex) -> gb_parse b = None /\ gb_is_example b = true /\ In b bs) /\
  (g_raise (google_examples (Some bs)) = None <-> good_prefix ex = ex).
Proof.
  intros ex. unfold google_examples. fold ex. destruct (google_go_spec ex 0%nat) as [A B].
  rewrite A. split; [reflexivity|]. split; [apply number_from_nums|]. split; [|exact B].
  intros b Hb. apply good_prefix_spec in Hb as [Hb P]. apply filter_In in Hb. tauto.
Qed.

Theorem collect_module_length st docs : length (collect_module st docs) = length docs.
Proof. apply map_length. Qed.
