(* RunEscape.v — with on_error='return', a doctest frame in every traceback and no base exception, the loop of
   DocTest.run ends only in the ways that return a summary (C09, C15). *)
From XD Require Import Model.RunLoop Proofs.RunDecide.
Open Scope N_scope.

Section Escape.
Variable requires_met : str -> res bool.
Variable cfg : config.
Variable oc : nat -> outcome.

(* the ends after which run hands back a summary (or calls pytest.skip, in pytest mode with every part skipped) *)
Definition Tame (e : run_end) : Prop := e = E_running \/ e = E_break \/ e = E_import_return.

Definition HasDoctestFrame : Prop := forall i out last hf, oc i = O_raise out last hf -> hf = true.
(* no SystemExit / KeyboardInterrupt *)
Definition NoBaseException : Prop := forall i out, oc i <> O_base out.
(* the executable model's "oracle entry missing" answer does not occur *)
Definition OracleTotal : Prop := forall rs ds q, rs_update requires_met rs ds <> UNeed q.

Hypothesis Hret : c_on_error cfg = OE_return.
Hypothesis Hframe : HasDoctestFrame.
Hypothesis Hbase : NoBaseException.
Hypothesis Htotal : OracleTotal.

Lemma part_update_total rs p q : part_update requires_met rs p <> UNeed q.
Proof. unfold part_update. destruct (p_dirs_raise p); [discriminate | apply Htotal]. Qed.

Lemma step_tame s i p : Tame (r_end s) -> Tame (r_end (step requires_met cfg oc s i p)).
Proof.
  intros T. destruct (r_end s) eqn:E; try (rewrite step_frozen by congruence; rewrite E; exact T).
  destruct (step_running requires_met cfg oc s i p E) as [q U|e _|rs _ _|rs _ _ _|rs _];
    cbn; unfold fail_end; rewrite ?Hret; unfold Tame; auto.
  - contradiction (part_update_total _ _ _ U).
  - destruct (part_effect_of _ _ _ _) as [um c|f c|x|] eqn:F; cbn; unfold fail_end; rewrite ?Hret; auto.
    (* Stop: the hypotheses leave the graceful exit only *)
    apply part_effect_stop in F. destruct (oc i) as [| out last [|] |out| | |out] eqn:O; try contradiction; subst x; auto.
    + discriminate (Hframe _ _ _ _ O).
    + contradiction (Hbase _ _ O).
Qed.

Lemma run_parts_tame ps : forall s i, Tame (r_end s) -> Tame (r_end (run_parts requires_met cfg oc s i ps)).
Proof. induction ps as [|p ps IH]; intros s i T; simpl; [exact T | apply IH; apply step_tame; exact T]. Qed.

End Escape.
