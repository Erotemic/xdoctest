(* WordsFacts.v — facts about str.split() (words) and ' '.join(s.split()) (collapse_ws), and about the steps of
   xdoctest's normalisation that only touch white space next to white space (or next to the end of the text):
   under NORMALIZE_WHITESPACE they do not change the words.  drop_cr_lines is not such a step; it is the identity on a
   text without carriage returns, which is all that is used of it. *)
From XD Require Import Model.Checker Proofs.BaseFacts.
Open Scope N_scope.

Lemma words_aux_nil cur : words_aux [] cur = flush_rev cur.
Proof. destruct cur; reflexivity. Qed.

Lemma words_aux_space c s cur : is_space c = true -> words_aux (c :: s) cur = flush_rev cur ++ words_aux s [].
Proof. intros H. cbn [words_aux]. rewrite H. destruct cur; reflexivity. Qed.

Lemma words_aux_char c s cur : is_space c = false -> words_aux (c :: s) cur = words_aux s (c :: cur).
Proof. intros H. cbn [words_aux]. rewrite H. reflexivity. Qed.

(* what a prefix does to the scan is independent of what follows *)
Lemma words_aux_prefix p : forall cur, exists pre cur', forall u, words_aux (p ++ u) cur = pre ++ words_aux u cur'.
Proof.
  induction p as [|c p IH]; intros cur.
  - exists [], cur. reflexivity.
  - destruct (is_space c) eqn:Hc.
    + destruct (IH []) as (pre & cur' & H). exists (flush_rev cur ++ pre), cur'. intros u.
      cbn [app]. rewrite words_aux_space by exact Hc. rewrite H, app_assoc. reflexivity.
    + destruct (IH (c :: cur)) as (pre & cur' & H). exists pre, cur'. intros u.
      cbn [app]. rewrite words_aux_char by exact Hc. apply H.
Qed.

Lemma words_aux_cong p u1 u2 cur :
  (forall cur', words_aux u1 cur' = words_aux u2 cur') -> words_aux (p ++ u1) cur = words_aux (p ++ u2) cur.
Proof. intros H. destruct (words_aux_prefix p cur) as (pre & cur' & E). rewrite !E, H. reflexivity. Qed.

Lemma words_aux_app_space x c y : forall cur, is_space c = true ->
  words_aux (x ++ c :: y) cur = words_aux x cur ++ words y.
Proof.
  intros cur Hc. destruct (words_aux_prefix x cur) as (pre & cur' & E).
  pose proof (E []) as E0. rewrite app_nil_r in E0.
  rewrite E, E0, words_aux_nil, words_aux_space by exact Hc. apply app_assoc.
Qed.

Lemma words_app_space x c y : is_space c = true -> words (x ++ c :: y) = words x ++ words y.
Proof. apply words_aux_app_space. Qed.

Lemma words_aux_trailing t : forallb is_space t = true -> forall cur, words_aux t cur = flush_rev cur.
Proof.
  induction t as [|c t IH]; intros H cur.
  - apply words_aux_nil.
  - cbn [forallb] in H. apply andb_prop in H as [Hc Ht]. rewrite words_aux_space by exact Hc.
    rewrite IH by exact Ht. cbn. apply app_nil_r.
Qed.

Lemma words_aux_app_trailing a t cur : forallb is_space t = true -> words_aux (a ++ t) cur = words_aux a cur.
Proof.
  intros Ht. rewrite <- (app_nil_r a) at 2. apply words_aux_cong. intros cur'.
  rewrite words_aux_trailing by exact Ht. symmetry. apply words_aux_nil.
Qed.

Lemma words_app_trailing a t : forallb is_space t = true -> words (a ++ t) = words a.
Proof. apply words_aux_app_trailing. Qed.

Lemma words_all_space t : forallb is_space t = true -> words t = [].
Proof. intros H. unfold words. rewrite words_aux_trailing by exact H. reflexivity. Qed.

Lemma words_space c s : is_space c = true -> words (c :: s) = words s.
Proof. intros H. unfold words. rewrite words_aux_space by exact H. reflexivity. Qed.

Lemma words_leading t y : forallb is_space t = true -> words (t ++ y) = words y.
Proof.
  induction t as [|c t IH]; intros H; [reflexivity|].
  cbn [forallb] in H. apply andb_prop in H as [Hc Ht]. cbn [app]. rewrite words_space by exact Hc. apply IH, Ht.
Qed.

Definition WsStart (y : str) : Prop := y = [] \/ exists c y', y = c :: y' /\ is_space c = true.

Lemma words_app_wsstart x y : WsStart y -> words (x ++ y) = words x ++ words y.
Proof.
  intros [->|(c & y' & -> & Hc)].
  - rewrite app_nil_r. cbn. symmetry. apply app_nil_r.
  - rewrite words_app_space, (words_space c) by exact Hc. reflexivity.
Qed.

Lemma NL_space : is_space NL = true. Proof. reflexivity. Qed.

Lemma words_join_nl ls : words (join_nl ls) = concat (map words ls).
Proof.
  induction ls as [|l|l m ls IH] using list_ind_join; [reflexivity|cbn; symmetry; apply app_nil_r|].
  rewrite join_nl_cons, words_app_space, IH by exact NL_space. reflexivity.
Qed.

Lemma join_split_nl s : join_nl (split_on NL s) = s.
Proof.
  induction s as [|x s IH]; [reflexivity|]. cbn [split_on].
  destruct (split_on NL s) as [|p ps] eqn:Es; [cbn in IH; subst s; discriminate Es|].
  destruct (N.eqb_spec x NL) as [->|_]; rewrite <- IH; [reflexivity|destruct ps; reflexivity].
Qed.

Lemma take_drop_while (f : char -> bool) l : l = take_while f l ++ drop_while f l.
Proof. induction l as [|c l IH]; [reflexivity|]. cbn. destruct (f c); cbn; [f_equal; exact IH|reflexivity]. Qed.

Lemma take_while_all (f : char -> bool) l : forallb f (take_while f l) = true.
Proof. induction l as [|c l IH]; [reflexivity|]. cbn. destruct (f c) eqn:E; cbn; [rewrite E; exact IH|reflexivity]. Qed.

Lemma forallb_rev (f : char -> bool) l : forallb f (rev l) = forallb f l.
Proof.
  induction l as [|c l IH]; [reflexivity|]. cbn. rewrite forallb_app, IH. cbn. rewrite andb_true_r. apply andb_comm.
Qed.

Lemma rstrip_split s : exists t, s = rstrip s ++ t /\ forallb is_space t = true.
Proof.
  exists (rev (take_while is_space (rev s))). split.
  - unfold rstrip. rewrite <- rev_app_distr, <- take_drop_while, rev_involutive. reflexivity.
  - rewrite forallb_rev. apply take_while_all.
Qed.

Lemma words_rstrip s : words (rstrip s) = words s.
Proof. destruct (rstrip_split s) as (t & E & Ht). rewrite E at 2. symmetry. apply words_app_trailing, Ht. Qed.

Lemma in_rstrip c s : In c (rstrip s) -> In c s.
Proof. destruct (rstrip_split s) as (t & E & _). intros H. rewrite E. apply in_or_app. left. exact H. Qed.

Lemma blank_space c : is_blank c = true -> is_space c = true.
Proof.
  unfold is_blank, SP, TAB. intros H. apply orb_prop in H as [H|H]; apply N.eqb_eq in H; subst; reflexivity.
Qed.

Lemma words_aux_rm_trailing s : forall pend cur, forallb is_space pend = true ->
  words_aux (rm_trailing_go s pend) cur = words_aux (rev pend ++ s) cur.
Proof.
  induction s as [|c s IH]; intros pend cur Hp; cbn [rm_trailing_go];
    assert (Hr : forallb is_space (rev pend) = true) by (rewrite forallb_rev; exact Hp).
  - rewrite app_nil_r, (words_aux_trailing _ Hr). apply words_aux_nil.
  - destruct (is_blank c) eqn:Hb.
    + rewrite IH by (cbn; rewrite Hp, (blank_space _ Hb); reflexivity).
      cbn [rev]. rewrite <- app_assoc. reflexivity.
    + destruct (N.eqb_spec c NL) as [->|_].
      * rewrite words_aux_space, words_aux_app_space, (words_aux_trailing _ Hr) by exact NL_space.
        rewrite (IH (@nil N) (@nil N)) by reflexivity. reflexivity.
      * apply words_aux_cong. intros cur'. apply (words_aux_cong [c]). intros cur''. exact (IH [] cur'' eq_refl).
Qed.

Lemma words_rm_trailing_ws s : words (rm_trailing_ws s) = words s.
Proof. unfold words, rm_trailing_ws. rewrite words_aux_rm_trailing by reflexivity. reflexivity. Qed.

Lemma in_rm_trailing_go c s : forall pend, In c (rm_trailing_go s pend) -> In c (rev pend ++ s).
Proof.
  induction s as [|x s IH]; intros pend; cbn [rm_trailing_go]; [intros []|].
  destruct (is_blank x).
  - intros H. apply IH in H. cbn [rev] in H. rewrite <- app_assoc in H. exact H.
  - specialize (IH []). cbn [rev app] in IH. destruct (x =? NL); rewrite !in_app_iff; cbn [In]; tauto.
Qed.

Lemma in_rm_trailing_ws c s : In c (rm_trailing_ws s) -> In c s.
Proof. intros H. apply in_rm_trailing_go in H. exact H. Qed.

Lemma drop_cr_aux s : forall cur, ~ In CR s -> ~ In CR cur ->
  concat (filter (fun l => negb (ends_with_cr l)) (splitlines_keep_aux s cur)) = rev cur ++ s.
Proof.
  assert (K : forall l a, ~ In CR (a :: l) -> ends_with_cr (rev (a :: l)) = false).
  { intros l a H. unfold ends_with_cr. rewrite rev_involutive. apply N.eqb_neq. intros ->. apply H. left. reflexivity. }
  induction s as [|c s IH]; intros cur Hs Hc.
  - cbn [splitlines_keep_aux]. rewrite app_nil_r. destruct cur as [|a cur]; [reflexivity|].
    cbn [flush_rev filter]. rewrite K by exact Hc. cbn. apply app_nil_r.
  - apply not_in_cons in Hs as [Hx Hs]. assert (~ In CR (c :: cur)) by (apply not_in_cons; auto).
    cbn [splitlines_keep_aux]. rewrite (proj2 (N.eqb_neq c CR)) by auto. destruct (is_linebreak c).
    + cbn [filter]. rewrite K by assumption. cbn [negb concat]. rewrite IH by (auto; intros []).
      cbn [rev]. rewrite <- !app_assoc. reflexivity.
    + rewrite IH by assumption. cbn [rev]. rewrite <- app_assoc. reflexivity.
Qed.

Lemma drop_cr_lines_id s : ~ In CR s -> drop_cr_lines s = s.
Proof. intros H. unfold drop_cr_lines, splitlines_keep. rewrite drop_cr_aux; auto. Qed.

Lemma collapse_words_eq a b : words a = words b -> collapse_ws a = collapse_ws b.
Proof. unfold collapse_ws. intros ->. reflexivity. Qed.

(* the three steps at the end of base_got and base_want *)
Lemma words_tail_steps t : ~ In CR t -> words (drop_cr_lines (rstrip (rm_trailing_ws t))) = words t.
Proof.
  intros H. rewrite drop_cr_lines_id, words_rstrip by (intros K; apply in_rstrip, in_rm_trailing_ws in K; contradiction).
  apply words_rm_trailing_ws.
Qed.
