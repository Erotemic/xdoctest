(* StaticProofs.v — collection is exact (C07): the visitor collects exactly the visible callables, each under one
   key; the package walk collects exactly the files of the package tree. *)
From XD Require Import Model.StaticCollect Proofs.BaseFacts.
Open Scope N_scope.

Lemma od_set_keys k v d k' : In k' (map fst (od_set k v d)) <-> k' = k \/ In k' (map fst d).
Proof.
  induction d as [|[k2 v2] d IH]; simpl; [split; intros [->|[]]; auto|].
  destruct (eqb_str k k2) eqn:E; simpl.
  - apply eqb_str_spec in E. subst k2. split; [intros [->|X] | intros [->|[->|X]]]; auto.
  - rewrite IH. split; intros [H|[H|H]]; auto.
Qed.

Lemma od_set_nodup k v d : NoDup (map fst d) -> NoDup (map fst (od_set k v d)).
Proof.
  induction d as [|[k2 v2] d IH]; simpl; intros H; [constructor; [tauto | constructor]|].
  inversion H; subst. destruct (eqb_str k k2) eqn:E; simpl.
  - apply eqb_str_spec in E. subst. constructor; assumption.
  - constructor; [|apply IH; assumption]. rewrite od_set_keys. intros [X|X]; [|contradiction].
    subst. rewrite eqb_str_refl in E. discriminate.
Qed.

Lemma od_set_entries k v d k' v' : In (k', v') (od_set k v d) -> (k' = k /\ v' = v) \/ In (k', v') d.
Proof.
  induction d as [|[k2 v2] d IH]; simpl.
  - intros [X|[]]. inversion X. auto.
  - destruct (eqb_str k k2) eqn:E; simpl.
    + intros [X|X]; [inversion X; auto | auto].
    + intros [X|X]; [auto | destruct (IH X); auto].
Qed.

(* C07's specification of the visitor: n, met at module level (cls = None) or in the body of class c (cls = Some c),
   holds a definition collected under the key nm with docstring d *)
Inductive Visible : option str -> snode -> str -> option nat -> Prop :=
| V_func cls name doc ch :
    Visible cls (SNode NK_Func name false doc ch) (callname_of cls name) doc
| V_class name hidden doc ch :
    Visible None (SNode NK_Class name hidden doc ch) name doc
| V_member name hidden doc ch c nm d :
    In c ch -> Visible (Some name) c nm d -> Visible None (SNode NK_Class name hidden doc ch) nm d
| V_inside cls name hidden doc ch c nm d :
    In c ch -> Visible cls c nm d -> Visible cls (SNode NK_Other name hidden doc ch) nm d
| V_else cls name hidden doc ch c nm d :        (* ch = the else branch of the main guard *)
    In c ch -> Visible cls c nm d -> Visible cls (SNode NK_IfMain name hidden doc ch) nm d.

Lemma Visible_unfold cls k name hidden doc ch nm d :
  Visible cls (SNode k name hidden doc ch) nm d <->
  match k with
  | NK_Func => hidden = false /\ nm = callname_of cls name /\ d = doc
  | NK_Class => cls = None /\ (nm = name /\ d = doc \/ exists c, In c ch /\ Visible (Some name) c nm d)
  | NK_IfMain | NK_Other => exists c, In c ch /\ Visible cls c nm d
  end.
Proof.
  split.
  - inversion 1; subst; eauto 6.
  - destruct k.
    + intros (-> & -> & ->). constructor.
    + intros (-> & [[-> ->] | (c & Hc & X)]); [constructor | econstructor; eassumption].
    + intros (c & Hc & X). econstructor; eassumption.
    + intros (c & Hc & X). econstructor; eassumption.
Qed.

(* snode is nested through list: the generated principle says nothing about the children *)
Section snode_ind2.
  Variables (P : snode -> Prop) (Q : list snode -> Prop).
  Hypothesis Hnode : forall k name hidden doc ch, Q ch -> P (SNode k name hidden doc ch).
  Hypothesis Hnil : Q [].
  Hypothesis Hcons : forall x r, P x -> Q r -> Q (x :: r).

  Fixpoint snode_ind2 (n : snode) : P n :=
    match n with
    | SNode k name hidden doc ch =>
        Hnode k name hidden doc ch
          ((fix go (l : list snode) : Q l :=
              match l with [] => Hnil | x :: r => Hcons x r (snode_ind2 x) (go r) end) ch)
    end.

  Lemma snode_both : (forall n, P n) /\ (forall l, Q l).
  Proof. split; [exact snode_ind2 | induction l; [exact Hnil | apply Hcons; [apply snode_ind2 | assumption]]]. Qed.
End snode_ind2.

(* the inner `fix go` of a traversal (the loop of generic_visit) is the list traversal given by its two equations:
   visit_list here, dyn_list in DynProofs *)
Lemma go_list (f : snode -> calldefs -> calldefs) (fl : list snode -> calldefs -> calldefs) :
  (forall a, fl [] a = a) -> (forall x r a, fl (x :: r) a = fl r (f x a)) ->
  forall l a, (fix go (l : list snode) (a : calldefs) : calldefs :=
                 match l with [] => a | x :: r => go r (f x a) end) l a = fl l a.
Proof. intros H0 H1. induction l as [|x r IH]; intros a; [symmetry; apply H0 | rewrite H1; apply IH]. Qed.

Lemma visit_unfold cls k name hidden doc children acc :
  visit cls (SNode k name hidden doc children) acc =
  match k with
  | NK_Func => if hidden then acc else od_set (callname_of cls name) doc acc
  | NK_Class => match cls with
                | None => visit_list (Some name) children (od_set name doc acc)
                | Some _ => acc
                end
  | NK_IfMain => visit_list cls children acc
  | NK_Other => visit_list cls children acc
  end.
Proof. destruct k, cls; try reflexivity; apply (go_list (visit _) (visit_list _)); reflexivity. Qed.

Lemma visit_nodup_both :
  (forall n cls acc, NoDup (map fst acc) -> NoDup (map fst (visit cls n acc))) /\
  (forall l cls acc, NoDup (map fst acc) -> NoDup (map fst (visit_list cls l acc))).
Proof.
  apply snode_both.
  - intros k name hidden doc ch IH cls acc H. rewrite visit_unfold. destruct k.
    + destruct hidden; [exact H | apply od_set_nodup, H].
    + destruct cls; [exact H | apply IH, od_set_nodup, H].
    + apply IH, H.
    + apply IH, H.
  - intros cls acc H. exact H.
  - intros x r IHx IHr cls acc H. apply IHr, IHx, H.
Qed.

Lemma visit_keys_both :
  (forall n cls acc nm,
     In nm (map fst (visit cls n acc)) <-> In nm (map fst acc) \/ exists d, Visible cls n nm d) /\
  (forall l cls acc nm,
     In nm (map fst (visit_list cls l acc)) <-> In nm (map fst acc) \/ exists d x, In x l /\ Visible cls x nm d).
Proof.
  apply snode_both.
  - intros k name hidden doc ch IH cls acc nm. rewrite visit_unfold. setoid_rewrite Visible_unfold. destruct k.
    + destruct hidden; [|rewrite od_set_keys].
      * split; [auto | intros [X|(d & E & _)]; [exact X | discriminate E]].
      * split; [intros [->|X]; eauto | intros [X|(d & _ & -> & _)]; auto].
    + destruct cls; [|rewrite IH, od_set_keys].
      * split; [auto | intros [X|(d & E & _)]; [exact X | discriminate E]].
      * split; [intros [[->|X]|(d & x & Hx & X)]; eauto 8 | intros [X|(d & _ & [[-> _]|(c & Hc & X)])]; eauto 6].
    + apply IH.
    + apply IH.
  - intros cls acc nm. split; [auto | intros [X|(d & x & [] & _)]; exact X].
  - intros x r IHx IHr cls acc nm. simpl. rewrite IHr, IHx. split.
    + intros [[X|(d & X)]|(d & y & Hy & X)]; eauto 6.
    + intros [X|(d & y & [<-|Hy] & X)]; eauto 6.
Qed.

Lemma visit_entries_both :
  (forall n cls acc nm d, In (nm, d) (visit cls n acc) -> In (nm, d) acc \/ Visible cls n nm d) /\
  (forall l cls acc nm d, In (nm, d) (visit_list cls l acc) -> In (nm, d) acc \/ exists x, In x l /\ Visible cls x nm d).
Proof.
  apply snode_both.
  - intros k name hidden doc ch IH cls acc nm d. rewrite visit_unfold, Visible_unfold. destruct k.
    + destruct hidden; [auto|]. intros H. apply od_set_entries in H. tauto.
    + destruct cls; [auto|]. intros H. apply IH in H. destruct H as [H|H]; [apply od_set_entries in H|]; tauto.
    + apply IH.
    + apply IH.
  - auto.
  - intros x r IHx IHr cls acc nm d H. apply IHr in H. destruct H as [H|(y & Hy & H)]; [apply IHx in H; destruct H|]; simpl; eauto.
Qed.

Lemma visit_entries n cls acc nm d : In (nm, d) (visit cls n acc) -> In (nm, d) acc \/ Visible cls n nm d.
Proof. apply visit_entries_both. Qed.

Inductive ModVisible (body : list snode) : str -> option nat -> Prop :=
| MV x nm d : In x body -> Visible None x nm d -> ModVisible body nm d.

(* C07's specification of the package walk: p is reported for the tree t at path d: a .py file of a directory all of
   whose ancestors down from t (t included) hold an __init__.py, or the __init__.py of such a sub-package *)
Inductive InPkg : list str -> dtree -> list str -> Prop :=
| IP_mod d nm ch n :
    has_init ch = true -> In (DFile n) ch -> ends_with DOT_PY n = true -> n <> INIT_PY ->
    InPkg d (DDir nm ch) (d ++ [n])
| IP_subinit d nm ch n ch' :
    has_init ch = true -> In (DDir n ch') ch -> has_init ch' = true ->
    InPkg d (DDir nm ch) (d ++ [n; INIT_PY])
| IP_deeper d nm ch x p :
    has_init ch = true -> In x ch -> InPkg (d ++ [dname x]) x p -> InPkg d (DDir nm ch) p.

Lemma in_mod_files d ch p : In p (mod_files d ch) <->
  exists n, In (DFile n) ch /\ ends_with DOT_PY n = true /\ n <> INIT_PY /\ p = d ++ [n].
Proof.
  unfold mod_files. rewrite in_flat_map. split.
  - intros ([n|n c] & Ht & X); [|destruct X].
    destruct (ends_with DOT_PY n) eqn:E1, (eqb_str n INIT_PY) eqn:E2; try contradiction.
    destruct X as [<-|[]]. exists n. apply eqb_str_false in E2. auto.
  - intros (n & Hn & E1 & E2 & ->). exists (DFile n). apply eqb_str_false in E2. rewrite E1, E2. split; [exact Hn | left; reflexivity].
Qed.

Lemma in_sub_inits d ch p : In p (sub_inits d ch) <->
  exists n ch', In (DDir n ch') ch /\ has_init ch' = true /\ p = d ++ [n; INIT_PY].
Proof.
  unfold sub_inits. rewrite in_flat_map. split.
  - intros ([n|n c] & Ht & X); [destruct X|]. destruct (has_init c) eqn:E; [|contradiction]. destruct X as [<-|[]]. eauto.
  - intros (n & c & Hn & E & ->). exists (DDir n c). rewrite E. split; [exact Hn | left; reflexivity].
Qed.

Definition go_walk (d : list str) :=
  fix go (l : list dtree) : list (list str) :=
    match l with [] => [] | x :: r => walk (d ++ [dname x]) x ++ go r end.

Lemma walk_unfold d nm children :
  walk d (DDir nm children) =
  if has_init children then mod_files d children ++ sub_inits d children ++ go_walk d children else [].
Proof. reflexivity. Qed.

Theorem walk_spec : forall t d p, In p (walk d t) <-> InPkg d t p.
Proof.
  fix IH 1. intros [n|nm ch] d p.
  - simpl. split; [tauto | intros H; inversion H].
  - rewrite walk_unfold.
    assert (G : In p (go_walk d ch) <-> exists x, In x ch /\ InPkg (d ++ [dname x]) x p).
    { induction ch as [|x r IHl]; simpl.
      - split; [tauto | intros (x & [] & _)].
      - rewrite in_app_iff, IH, IHl. split.
        + intros [X|(y & Hy & X)]; [exists x; auto | exists y; auto].
        + intros (y & [<-|Hy] & X); [auto | right; exists y; auto]. }
    destruct (has_init ch) eqn:HI.
    + rewrite !in_app_iff, in_mod_files, in_sub_inits, G. split.
      * intros [(n & A & B & C & ->)|[(n & c & A & B & ->)|(x & A & B)]];
          [apply IP_mod | eapply IP_subinit | eapply IP_deeper]; eassumption.
      * inversion 1; subst; eauto 10.
    + split; [intros [] | intros H; inversion H; congruence].
Qed.
