(* BaseFacts.v — characterising lemmas for Model/Base.v, and the list facts that several files share *)
From XD Require Import Model.Base.
Open Scope N_scope.

Lemma eqb_str_spec a b : eqb_str a b = true <-> a = b.
Proof.
  revert b; induction a as [|x a IH]; intros [|y b]; simpl; split; intro H;
    try reflexivity; try discriminate.
  - apply andb_true_iff in H as [H1 H2]. apply N.eqb_eq in H1. apply IH in H2. congruence.
  - inversion H; subst. rewrite N.eqb_refl. simpl. apply IH. reflexivity.
Qed.

Lemma eqb_str_refl a : eqb_str a a = true.
Proof. apply eqb_str_spec. reflexivity. Qed.

Lemma eqb_str_false a b : eqb_str a b = false <-> a <> b.
Proof.
  split; intro H.
  - intro E. apply eqb_str_spec in E. congruence.
  - destruct (eqb_str a b) eqn:E; [|reflexivity]. apply eqb_str_spec in E. contradiction.
Qed.

Lemma starts_with_spec p s : starts_with p s = true <-> exists t, s = p ++ t.
Proof.
  revert s; induction p as [|a p IH]; intros s; simpl.
  - split; [intros _; exists s; reflexivity | reflexivity].
  - destruct s as [|b s].
    + split; [discriminate | intros [t H]; discriminate].
    + split.
      * intros H. apply andb_true_iff in H as [H1 H2]. apply N.eqb_eq in H1.
        apply IH in H2 as [t ->]. exists t. subst. reflexivity.
      * intros [t H]. inversion H; subst. rewrite N.eqb_refl. simpl. apply IH. exists t. reflexivity.
Qed.

Lemma starts_with_app p t : starts_with p (p ++ t) = true.
Proof. apply starts_with_spec. exists t. reflexivity. Qed.

Lemma starts_with_nil s : starts_with [] s = true.
Proof. reflexivity. Qed.

Lemma ends_with_spec p s : ends_with p s = true <-> exists t, s = t ++ p.
Proof.
  unfold ends_with. rewrite starts_with_spec. split.
  - intros [t H]. exists (rev t).
    apply (f_equal (@rev N)) in H. rewrite rev_involutive, rev_app_distr, rev_involutive in H. exact H.
  - intros [t ->]. exists (rev t). rewrite rev_app_distr. reflexivity.
Qed.

Lemma ends_with_nil s : ends_with [] s = true.
Proof. apply ends_with_spec. exists s. rewrite app_nil_r. reflexivity. Qed.

(* ---- find_sub ---- *)

Lemma find_sub_unfold w s :
  find_sub w s =
  if starts_with w s then Some O else match s with [] => None | _ :: s' => option_map S (find_sub w s') end.
Proof. destruct s; reflexivity. Qed.

Lemma find_sub_some w s i :
  find_sub w s = Some i ->
  exists a b, s = a ++ w ++ b /\ length a = i.
Proof.
  revert i; induction s as [|c s IH]; intros i; rewrite find_sub_unfold; destruct (starts_with w _) eqn:E; simpl.
  1, 3: intros [= <-]; apply starts_with_spec in E as [t E]; exists [], t; auto.
  - discriminate.
  - destruct (find_sub w s) as [j|]; [|discriminate]. intros [= <-].
    destruct (IH j eq_refl) as (a & b & -> & L). exists (c :: a), b. simpl; auto.
Qed.

Lemma find_sub_least w s i :
  find_sub w s = Some i ->
  forall a b, s = a ++ w ++ b -> (i <= length a)%nat.
Proof.
  intros H a. revert s i H. induction a as [|x a IH]; intros s i H b ->; cbn [app] in H; rewrite find_sub_unfold in H.
  - rewrite starts_with_app in H. injection H as <-. apply le_n.
  - simpl. destruct (starts_with w _); [injection H as <-; apply Nat.le_0_l|].
    destruct (find_sub w (a ++ w ++ b)) as [j|] eqn:F; [|discriminate]. injection H as <-.
    apply le_n_S, (IH _ _ F b eq_refl).
Qed.

Lemma find_sub_none w s :
  find_sub w s = None -> forall a b, s <> a ++ w ++ b.
Proof.
  intros H a. revert s H. induction a as [|x a IH]; intros s H b ->; cbn [app] in H; rewrite find_sub_unfold in H.
  - rewrite starts_with_app in H. discriminate.
  - destruct (starts_with w _); [discriminate|].
    destruct (find_sub w (a ++ w ++ b)) eqn:F; [discriminate|]. exact (IH _ F b eq_refl).
Qed.

Lemma find_sub_exists w a b : exists i, find_sub w (a ++ w ++ b) = Some i.
Proof.
  destruct (find_sub w (a ++ w ++ b)) as [i|] eqn:F; [eauto|].
  exfalso. eapply find_sub_none; eauto.
Qed.

Lemma find_sub_nil s : find_sub [] s = Some O.
Proof. destruct s; reflexivity. Qed.

Lemma contains_spec w s : contains w s = true <-> exists a b, s = a ++ w ++ b.
Proof.
  unfold contains. destruct (find_sub w s) as [i|] eqn:F.
  - split; [intros _|reflexivity]. apply find_sub_some in F as (a & b & H & _). eauto.
  - split; [discriminate|]. intros (a & b & H). exfalso. eapply find_sub_none; eauto.
Qed.

Lemma contains_cons w c s : contains w (c :: s) = starts_with w (c :: s) || contains w s.
Proof.
  unfold contains. cbn [find_sub]. destruct (starts_with w (c :: s)); [reflexivity|].
  destruct (find_sub w s); reflexivity.
Qed.

(* ---- lists ---- *)

Lemma skipn_app_exact {A} (a b : list A) : skipn (length a) (a ++ b) = b.
Proof. induction a; simpl; auto. Qed.

Lemma firstn_app_exact {A} (a b : list A) : firstn (length a) (a ++ b) = a.
Proof. induction a; simpl; congruence. Qed.

(* prefix: firstn (length a) b = a *)
Lemma prefix_length {A} (a b : list A) : firstn (length a) b = a -> (length a <= length b)%nat.
Proof. intros H. apply (f_equal (@length _)) in H. rewrite firstn_length in H. lia. Qed.

Lemma prefix_trans {A} (a b c : list A) :
  firstn (length a) b = a -> firstn (length b) c = b -> firstn (length a) c = a.
Proof.
  intros H1 H2. pose proof (prefix_length _ _ H1) as L.
  rewrite <- H1 at 2. rewrite <- H2 at 1. rewrite firstn_firstn. f_equal. lia.
Qed.

Lemma nth_firstn_lt {A} (l : list A) n c d : (c < n)%nat -> nth c (firstn n l) d = nth c l d.
Proof.
  revert n c. induction l as [|x l IH]; intros n c H; [destruct n; destruct c; reflexivity|].
  destruct n; [lia|]. destruct c; simpl; [reflexivity | apply IH; lia].
Qed.

Lemma slice_middle {A} (a m b : list A) :
  slice (length a) (length (a ++ m ++ b) - length b) (a ++ m ++ b) = m.
Proof.
  unfold slice. rewrite skipn_app_exact. rewrite !app_length.
  replace (length a + (length m + length b) - length b - length a)%nat with (length m) by lia.
  apply firstn_app_exact.
Qed.

Lemma split_three {A} (s p q : list A) t u :
  s = p ++ t -> s = u ++ q -> (length p <= length s - length q)%nat ->
  s = p ++ slice (length p) (length s - length q) s ++ q.
Proof.
  intros H1 H2 L. assert (M : exists m, s = p ++ m ++ q).
  { rewrite H1 in H2. apply app_eq_app in H2 as [m [[-> ->]|[-> ->]]]; [|exists m; exact H1].
    (* p = u ++ m: the length bound leaves no room for m *)
    subst s. rewrite !app_length in L. destruct m; [|simpl in L; lia].
    exists []. rewrite app_nil_r. reflexivity. }
  destruct M as [m ->]. rewrite slice_middle. reflexivity.
Qed.

Lemma list_ind_join {A} (Q : list A -> Prop) :
  Q [] -> (forall x, Q [x]) -> (forall x y l, Q (y :: l) -> Q (x :: y :: l)) -> forall l, Q l.
Proof. intros H0 H1 H2 l. induction l as [|x [|y l] IH]; auto. Qed.

Lemma forallb_negb {A} (f : A -> bool) l :
  forallb (fun x => negb (f x)) l = true -> forall x, In x l -> f x = false.
Proof. intros H x Hx. apply negb_true_iff. exact (proj1 (forallb_forall _ l) H x Hx). Qed.

Lemma forallb_false {A} (f : A -> bool) l : forallb f l = false <-> exists x, In x l /\ f x = false.
Proof.
  induction l as [|a l IH]; simpl; [split; [discriminate | intros (x & [] & _)]|].
  rewrite andb_false_iff, IH. split.
  - intros [H|(x & Hx & H)]; eauto.
  - intros (x & [<-|Hx] & H); eauto.
Qed.

Lemma Forall_spaced {A} (P : A -> Prop) x c m n : P x -> P c -> Forall P (repeat x m ++ [c] ++ repeat x n).
Proof.
  intros Hx Hc. assert (R : forall k, Forall P (repeat x k)) by (induction k; constructor; assumption).
  apply Forall_app. split; [apply R | constructor; [exact Hc | apply R]].
Qed.

Lemma fold_left_inv {A B} (P : A -> Prop) (f : A -> B -> A) l :
  (forall a b, In b l -> P a -> P (f a b)) -> forall a, P a -> P (fold_left f l a).
Proof.
  induction l as [|b l IH]; intros H a Pa; [exact Pa|].
  apply IH; [intros a' b' Hb; apply H; right; exact Hb | apply H; [left; reflexivity | exact Pa]].
Qed.

Lemma map_snd_combine {A B} : forall (a : list A) (b : list B), length a = length b -> map snd (combine a b) = b.
Proof.
  induction a as [|x a IH]; intros [|y b] H; cbn in *; try reflexivity; try discriminate.
  rewrite IH by lia. reflexivity.
Qed.

(* pos lists, from i on, the positions at which f holds: Parser.index_filter, RunnerProofs.positions *)
Lemma positions_in {A} (f : A -> bool) (pos : list A -> nat -> list nat) :
  (forall i, pos [] i = []) ->
  (forall a l i, pos (a :: l) i = if f a then i :: pos l (S i) else pos l (S i)) ->
  forall l i x, In x (pos l i) <-> exists k a, nth_error l k = Some a /\ f a = true /\ x = (i + k)%nat.
Proof.
  intros P0 P1. induction l as [|a l IH]; intros i x.
  - rewrite P0. split; [intros [] | intros ([|k] & b & H & _); discriminate].
  - (* position 0 apart, the positions of a :: l are those of l counted from S i *)
    assert (R : (exists k b, nth_error (a :: l) k = Some b /\ f b = true /\ x = (i + k)%nat) <->
                (f a = true /\ x = i) \/ In x (pos l (S i))).
    { rewrite IH. split.
      - intros ([|k] & b & H & F & ->); [injection H as ->; rewrite Nat.add_0_r; auto | rewrite Nat.add_succ_r; eauto 6].
      - intros [[F ->]|(k & b & H & F & ->)]; [exists 0%nat, a; auto | exists (S k), b; rewrite Nat.add_succ_r; auto]. }
    rewrite P1, R. destruct (f a); simpl.
    + split; [intros [<-|H] | intros [[_ ->]|H]]; auto.
    + split; [auto | intros [[F _]|H]; [discriminate F | exact H]].
Qed.

Lemma join_nl_cons l m r : join_nl (l :: m :: r) = l ++ NL :: join_nl (m :: r).
Proof. reflexivity. Qed.

Lemma join_cons sep l rest : join sep (l :: rest) = l ++ concat (map (app sep) rest).
Proof.
  revert l. induction rest as [|m rest IH]; intros l; [symmetry; apply app_nil_r|].
  change (join sep (l :: m :: rest)) with (l ++ sep ++ join sep (m :: rest)). rewrite IH. cbn [map concat].
  rewrite <- app_assoc. reflexivity.
Qed.

(* chomp is chomp_by is_linebreak and src_chomp is chomp_by is_srcbreak, by conversion *)
Definition chomp_by (brk : char -> bool) (l : str) : str :=
  match rev l with
  | a :: b :: r => if (a =? NL) && (b =? CR) then rev r else if brk a then rev (b :: r) else l
  | [a] => if brk a then [] else l
  | [] => []
  end.

Definition BreakFree (brk : char -> bool) (l : str) : Prop := forall c, In c l -> brk c = false.

Lemma no_break_neq (brk : char -> bool) c d : brk c = false -> brk d = true -> (c =? d) = false.
Proof. intros Hc Hd. apply N.eqb_neq. congruence. Qed.

(* splitlines_keep_aux and srclines_keep_aux are separate fixpoints that differ in the break predicate, so nothing holds
   of both by conversion; these equations are all that lines_join_all and its corollaries use of either *)
Record Scanner (brk : char -> bool) (scan : str -> str -> list str) : Prop := {
  brk_NL : brk NL = true;
  brk_CR : brk CR = true;
  scan_nil : forall cur, scan [] cur = flush_rev cur;
  scan_char : forall c s cur, brk c = false -> scan (c :: s) cur = scan s (c :: cur);
  scan_NL : forall s cur, scan (NL :: s) cur = rev (NL :: cur) :: scan s []
}.

Lemma splitlines_scanner : Scanner is_linebreak splitlines_keep_aux.
Proof.
  split; try reflexivity. intros c s cur H. cbn. rewrite H, (no_break_neq is_linebreak c CR H eq_refl). reflexivity.
Qed.

Lemma srclines_scanner : Scanner is_srcbreak srclines_keep_aux.
Proof.
  split; try reflexivity. intros c s cur H. cbn. rewrite H, (no_break_neq is_srcbreak c CR H eq_refl). reflexivity.
Qed.

Section Splitter.
  Context {brk scan} (Sc : Scanner brk scan).

  Lemma chomp_by_line cur : BreakFree brk cur -> chomp_by brk (rev (NL :: cur)) = rev cur.
  Proof.
    intros H. unfold chomp_by. rewrite rev_involutive. destruct cur as [|b r]; cbn; rewrite (brk_NL _ _ Sc); [reflexivity|].
    rewrite (no_break_neq brk b CR (H b (or_introl eq_refl)) (brk_CR _ _ Sc)). reflexivity.
  Qed.

  Lemma chomp_by_last cur : BreakFree brk cur -> chomp_by brk (rev cur) = rev cur.
  Proof.
    intros H. unfold chomp_by. rewrite rev_involutive. destruct cur as [|a r]; [reflexivity|].
    assert (Ha : brk a = false) by (apply H; left; reflexivity).
    destruct r as [|b r]; [rewrite Ha; reflexivity|].
    rewrite (no_break_neq brk a NL Ha (brk_NL _ _ Sc)), Ha. reflexivity.
  Qed.

  Lemma scan_chars l : forall cur rest, BreakFree brk l -> scan (l ++ rest) cur = scan rest (rev l ++ cur).
  Proof.
    induction l as [|c l IH]; intros cur rest H; [reflexivity|].
    cbn [app rev]. rewrite (scan_char _ _ Sc) by (apply H; left; reflexivity).
    rewrite IH by (intros x Hx; apply H; right; exact Hx). rewrite <- app_assoc. reflexivity.
  Qed.

  Lemma BreakFree_rev l : BreakFree brk l -> BreakFree brk (rev l).
  Proof. intros H c Hc. apply H, in_rev, Hc. Qed.

  Let lines s := map (chomp_by brk) (scan s []).

  Lemma lines_line l rest : BreakFree brk l -> lines (l ++ NL :: rest) = l :: lines rest.
  Proof.
    intros H. unfold lines. rewrite scan_chars, app_nil_r, (scan_NL _ _ Sc) by exact H. cbn [map].
    rewrite chomp_by_line, rev_involutive by (apply BreakFree_rev, H). reflexivity.
  Qed.

  Lemma lines_last l : BreakFree brk l -> lines l = match l with [] => [] | _ => [l] end.
  Proof.
    intros H. unfold lines. pose proof (scan_chars l [] [] H) as E. rewrite !app_nil_r in E. rewrite E, (scan_nil _ _ Sc).
    destruct l as [|c l]; [reflexivity|]. unfold flush_rev. destruct (rev (c :: l)) eqn:R.
    - apply (f_equal (@rev _)) in R. rewrite rev_involutive in R. discriminate R.
    - rewrite <- R. cbn [map]. rewrite chomp_by_last, rev_involutive by (apply BreakFree_rev, H). reflexivity.
  Qed.

  Lemma lines_join ls : Forall (fun l => BreakFree brk l /\ l <> []) ls -> lines (join_nl ls) = ls.
  Proof.
    induction ls as [|l|l m r IH] using list_ind_join; intros H; inversion H as [|? ? [Hc Hne] Hr]; subst.
    - apply (lines_last []). intros c [].
    - cbn. rewrite lines_last by exact Hc. destruct l; [contradiction | reflexivity].
    - rewrite join_nl_cons, lines_line, IH by assumption. reflexivity.
  Qed.
End Splitter.

(* ---- Forall2 ---- *)

Lemma Forall2_length {A B} (R : A -> B -> Prop) l1 l2 : Forall2 R l1 l2 -> length l1 = length l2.
Proof. induction 1; simpl; congruence. Qed.
