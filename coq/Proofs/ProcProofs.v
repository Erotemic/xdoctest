(* ProcProofs.v — process-global state is restored after every outcome (C12); the stdout
   recorded for a doctest is exactly what its code wrote (C01). *)
From XD Require Import Model.Proc Proofs.BaseFacts.
Open Scope N_scope.

Lemma remove_insert {A} i (x : A) l : (i <= length l)%nat -> remove_at i (insert_at i x l) = l.
Proof.
  revert l. induction i as [|k IH]; intros l H; [reflexivity|].
  destruct l as [|y l']; simpl in *; [lia|]. rewrite IH by lia. reflexivity.
Qed.

Lemma nth_insert {A} i (x : A) l : (i <= length l)%nat -> nth_error (insert_at i x l) i = Some x.
Proof.
  revert l. induction i as [|k IH]; intros l H; [reflexivity|].
  destruct l as [|y l']; simpl in *; [lia|]. apply IH. lia.
Qed.

Lemma length_insert {A} i (x : A) l : length (insert_at i x l) = S (length l).
Proof.
  revert l. induction i as [|k IH]; intros l; [reflexivity|].
  destruct l as [|y l']; simpl; [reflexivity | rewrite IH; reflexivity].
Qed.

Lemma ppc_index_bound len index : (- Z.of_nat len - 1 <= index <= Z.of_nat len)%Z -> (ppc_index len index <= len)%nat.
Proof. unfold ppc_index. intros H. destruct (index <? 0)%Z eqn:E; lia. Qed.

Lemma index_of_spec d l r : index_of d l = Some r ->
  nth_error l r = Some d /\ forall j, (j < r)%nat -> nth_error l j <> Some d.
Proof.
  revert r. induction l as [|y l IH]; intros r H; simpl in H; [discriminate|].
  destruct (eqb_str d y) eqn:E.
  - inversion H; subst. apply eqb_str_spec in E. subst y. split; [reflexivity | intros j Hj; lia].
  - destruct (index_of d l) as [k|] eqn:K; [|discriminate]. inversion H; subst.
    destruct (IH k eq_refl) as [A B]. split; [exact A|].
    intros [|j] Hj; simpl.
    + intro X. inversion X; subst. rewrite eqb_str_refl in E. discriminate.
    + apply B. lia.
Qed.

Lemma index_of_none d l : index_of d l = None -> ~ In d l.
Proof.
  induction l as [|y l IH]; simpl; [tauto|]. destruct (eqb_str d y) eqn:E; [discriminate|].
  destruct (index_of d l); [discriminate|]. intros _ [X|X].
  - subst y. rewrite eqb_str_refl in E. discriminate.
  - exact (IH eq_refl X).
Qed.

Theorem path_recovery path' d i :
  match ppc_exit path' d i with
  | PPC_ok p'' => exists j, nth_error path' j = Some d /\ p'' = remove_at j path' /\
                            (nth_error path' i = Some d -> j = i) /\
                            (nth_error path' i <> Some d -> forall k, (k < j)%nat -> nth_error path' k <> Some d)
  | PPC_runtime_error => ~ In d path' /\ (i < length path')%nat
  | PPC_index_error => (length path' <= i)%nat
  end.
Proof.
  unfold ppc_exit. destruct (Nat.leb_spec (length path') i) as [L|L]; [exact L|].
  destruct (nth_error path' i) as [x|] eqn:N.
  - destruct (eqb_str x d) eqn:E.
    + apply eqb_str_spec in E. subst x. exists i. repeat split; try assumption; try reflexivity.
      intros X. contradiction.
    + destruct (index_of d path') as [r|] eqn:R.
      * destruct (index_of_spec _ _ _ R) as [A B]. exists r. split; [exact A|]. split; [reflexivity|]. split.
        -- intros X. inversion X; subst. rewrite eqb_str_refl in E. discriminate.
        -- intros _. exact B.
      * split; [apply index_of_none; exact R | exact L].
  - apply nth_error_None in N. lia.
Qed.

(* the text a body writes to the capture stream: writes made while sys.stdout is the capture object *)
Fixpoint captured_from (out : obj) (body : list op) : str :=
  match body with
  | [] => []
  | Write t :: r => (if Nat.eqb out CAP then t else []) ++ captured_from out r
  | SetStdout v :: r => captured_from v r
  | _ :: r => captured_from out r
  end.
Definition captured (body : list op) : str := captured_from CAP body.

Lemma do_ops_spec body : forall s,
  p_stderr (do_ops s body) = p_stderr s /\
  p_cap_text (do_ops s body) = p_cap_text s ++ captured_from (p_stdout s) body.
Proof.
  unfold do_ops. induction body as [|o r IH]; intros s; simpl.
  - rewrite app_nil_r. split; reflexivity.
  - destruct (IH (do_op s o)) as [A B]. rewrite A, B. destruct o; simpl; [|split; reflexivity ..].
    destruct (Nat.eqb (p_stdout s) CAP); simpl; [rewrite <- app_assoc |]; split; reflexivity.
Qed.

Lemma with_cap_spec orig s body :
  let '(s', text, pos') := with_cap orig (length (p_cap_text s)) s body in
  p_stdout s' = orig /\ p_stderr s' = p_stderr s /\ p_cap_text s' = p_cap_text s ++ captured body /\
  text = captured body /\ pos' = length (p_cap_text s').
Proof.
  unfold with_cap. cbn. destruct (do_ops_spec body (set_stdout s CAP)) as [A B]. cbn in A, B.
  rewrite A, B, skipn_app_exact. repeat split.
Qed.

(* The invariant of the capture loop: between two parts sys.stdout is the original object and the position of the
   last log_part is the end of the captured text, so the skipn of with_cap cuts off exactly what the part wrote. *)
Lemma run_parts_proc_spec orig bodies : forall s logged, p_stdout s = orig ->
  exists s', run_parts_proc orig (length (p_cap_text s)) s bodies logged = (s', logged ++ map captured bodies) /\
             p_stdout s' = orig /\ p_stderr s' = p_stderr s /\
             p_cap_text s' = p_cap_text s ++ concat (map captured bodies).
Proof.
  induction bodies as [|b rest IH]; intros s logged H; cbn [run_parts_proc map concat].
  - exists s. rewrite !app_nil_r. auto.
  - pose proof (with_cap_spec orig s b) as W.
    destruct (with_cap orig (length (p_cap_text s)) s b) as [[s1 text] pos1].
    destruct W as (A & B & C & -> & ->).
    destruct (IH s1 (logged ++ [captured b]) A) as (s' & E & A' & B' & C').
    exists s'. rewrite E, <- app_assoc. split; [reflexivity|]. split; [exact A'|]. split; [exact (eq_trans B' B)|].
    rewrite C', C, <- app_assoc. reflexivity.
Qed.

Lemma run_proc_spec s bodies :
  exists s1, run_proc s bodies =
             (mkProc (p_stdout s1) (p_stderr s1) (p_filters s) (p_showwarning s) (p_cap_text s1), map captured bodies) /\
             p_stdout s1 = p_stdout s /\ p_stderr s1 = p_stderr s /\ p_cap_text s1 = concat (map captured bodies).
Proof.
  unfold run_proc.
  destruct (run_parts_proc_spec (p_stdout s) bodies (mkProc (p_stdout s) (p_stderr s) (p_filters s) RECORDING []) [] eq_refl)
    as (s1 & E & A & B & C).
  exists s1. cbn [p_cap_text length] in E. rewrite E. auto.
Qed.

Theorem capture_exact s bodies :
  snd (run_proc s bodies) = map captured bodies /\
  concat (snd (run_proc s bodies)) = p_cap_text (fst (run_proc s bodies)).
Proof. destruct (run_proc_spec s bodies) as (s1 & E & _ & _ & C). rewrite E. simpl. auto. Qed.
