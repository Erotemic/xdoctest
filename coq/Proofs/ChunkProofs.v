(* ChunkProofs.v — the parts _package_chunk makes tile the chunk's source lines whatever the oracles answer, the want
   goes to the last part, a part's line offset is the position of its first line: _package_chunk cuts the chunk along
   a list of boundaries (package_chunk_cut), in both modes of the parser. *)
From XD Require Import Model.Parser Spec.Partition Proofs.ParserProofs Proofs.GroupLocal.
Open Scope nat_scope.

Lemma Ascending_cons a l : Ascending (a :: l) <-> (forall y, In y l -> a < y) /\ Ascending l.
Proof.
  revert a. induction l as [|b l IH]; intros a; [simpl; tauto|].
  change (Ascending (a :: b :: l)) with (a < b /\ Ascending (b :: l)). split.
  - intros [Hab H]. split; [|exact H]. intros y [<-|Hy]; [exact Hab|].
    apply IH in H. destruct H as [H _]. specialize (H y Hy). lia.
  - intros [H1 H2]. split; [apply H1; left; reflexivity | exact H2].
Qed.

Lemma Ascending_last_max l : forall y, Ascending l -> In y l -> y <= last l 0.
Proof.
  induction l as [|a l IH]; intros y H Hy; [destruct Hy|]. apply Ascending_cons in H. destruct H as [Ha H].
  destruct l as [|b l]; [destruct Hy as [<-|[]]; simpl; lia|]. change (last (a :: b :: l) 0) with (last (b :: l) 0).
  destruct Hy as [<-|Hy]; [|apply IH; assumption].
  specialize (Ha b (or_introl eq_refl)). specialize (IH b H (or_introl eq_refl)). lia.
Qed.

Lemma Ascending_snoc l x : Ascending l -> last l 0 < x -> Ascending (l ++ [x]).
Proof.
  intros H L. assert (B : forall y, In y l -> y < x) by (intros y Hy; pose proof (Ascending_last_max l y H Hy); lia).
  clear L. induction l as [|a l IH]; [exact I|]. cbn [app]. apply Ascending_cons in H. apply Ascending_cons. split.
  - intros y Hy. apply in_app_or in Hy. destruct Hy as [Hy|[<-|[]]]; [apply H; exact Hy | apply B; left; reflexivity].
  - apply IH; [apply H | intros y Hy; apply B; right; exact Hy].
Qed.

Lemma filter_asc f : forall l, Ascending l -> Ascending (filter f l).
Proof.
  induction l as [|a l IH]; intros H; simpl; [exact I|]. apply Ascending_cons in H. destruct H as [Ha H].
  destruct (f a); [|apply IH; exact H]. apply Ascending_cons. split; [|apply IH; exact H].
  intros y Hy. apply filter_In in Hy. apply Ha, Hy.
Qed.

Lemma insert_sorted_asc x l : Ascending l -> Ascending (insert_sorted x l).
Proof.
  induction l as [|z l IH]; intros H; simpl; [exact I|].
  destruct (Nat.ltb x z) eqn:L.
  - apply Nat.ltb_lt in L. split; [exact L | exact H].
  - destruct (Nat.eqb x z) eqn:E; [exact H|].
    apply Nat.ltb_ge in L. apply Nat.eqb_neq in E. apply Ascending_cons in H. destruct H as [Hz H].
    apply Ascending_cons. split; [|apply IH; exact H].
    intros y Hy. apply insert_sorted_in in Hy. destruct Hy as [<-|Hy]; [lia | apply Hz; exact Hy].
Qed.

Lemma sort_uniq_asc l : Ascending (sort_uniq l).
Proof. induction l as [|x l IH]; simpl; [exact I | apply insert_sorted_asc; exact IH]. Qed.

Lemma sort_uniq_zero_hd l : exists t, sort_uniq (0 :: l) = 0 :: t.
Proof. simpl. destruct (sort_uniq l) as [|[|z] t]; simpl; eauto. Qed.

Lemma skipn_plus {A} : forall (x y : nat) (l : list A), skipn x (skipn y l) = skipn (y + x) l.
Proof.
  intros x y; revert x. induction y as [|y IH]; intros x l; [reflexivity|].
  destruct l as [|a l]; [simpl; destruct x; reflexivity | simpl; apply IH].
Qed.

Lemma slice_then_skipn {A} (a b : nat) (l : list A) : a <= b -> slice a b l ++ skipn b l = skipn a l.
Proof.
  intros H. unfold slice. replace (skipn b l) with (skipn (b - a) (skipn a l)).
  - apply firstn_skipn.
  - rewrite skipn_plus. f_equal. lia.
Qed.

Lemma slice_length {A} (a b : nat) (l : list A) : a <= b -> b <= length l -> length (slice a b l) = b - a.
Proof. intros H1 H2. unfold slice. rewrite firstn_length, skipn_length. lia. Qed.

Lemma tiles_cons {A} a b bs (l : list A) : tiles (a :: b :: bs) l = slice a b l :: tiles (b :: bs) l.
Proof. reflexivity. Qed.

Lemma tiles_concat_from {A} (l : list A) : forall bs a, Ascending (a :: bs) ->
  concat (tiles (a :: bs) l) = skipn a l.
Proof.
  induction bs as [|b bs IH]; intros a H.
  - unfold tiles. simpl. apply app_nil_r.
  - destruct H as [Hab H]. rewrite tiles_cons. cbn [concat]. rewrite (IH b H). apply slice_then_skipn. lia.
Qed.

Theorem tiles_concat {A} (l : list A) bs :
  hd_error bs = Some 0 -> Ascending bs -> concat (tiles bs l) = l.
Proof.
  destruct bs as [|a bs]; [discriminate|]. simpl. intros [= ->]. apply tiles_concat_from.
Qed.

Lemma consecutive_pairs_snoc bs x : bs <> [] ->
  consecutive_pairs (bs ++ [x]) = consecutive_pairs bs ++ [(last bs 0, x)].
Proof.
  destruct bs as [|a bs]; [congruence|]. intros _. revert a. induction bs as [|b bs IH]; intros a; [reflexivity|].
  change ((a :: b :: bs) ++ [x]) with (a :: ((b :: bs) ++ [x])).
  change (consecutive_pairs (a :: (b :: bs) ++ [x])) with ((a, b) :: consecutive_pairs ((b :: bs) ++ [x])).
  rewrite IH. reflexivity.
Qed.

Lemma last_opt_last {A} (l : list A) d : last_opt l = match l with [] => None | _ => Some (last l d) end.
Proof.
  unfold last_opt. destruct l as [|x l]; [reflexivity|].
  destruct (@exists_last _ (x :: l)) as (l' & y & E); [discriminate|]. rewrite E.
  rewrite rev_app_distr. simpl. rewrite last_last. reflexivity.
Qed.

Lemma locate_ps1_asc o src ps1 mode : locate_ps1 o src = Ok (ps1, mode) -> Ascending ps1.
Proof. intros H. apply locate_ps1_starts in H. destruct H as (ivs & stmts & _ & _ & ->). apply filter_asc, sort_uniq_asc. Qed.

Lemma hack_comments_length : forall lines starts i, length (hack_comments lines starts i) = length lines.
Proof. induction lines as [|l ls IH]; intros starts i; simpl; [reflexivity | rewrite IH; reflexivity]. Qed.

Lemma locate_ps1_in_range o src ps1 mode :
  AstInRange o -> locate_ps1 o src = Ok (ps1, mode) -> forall x, In x ps1 -> x < length src.
Proof.
  intros HR H x Hx. apply locate_ps1_starts in H. destruct H as (ivs & stmts & _ & A & ->).
  apply filter_In in Hx. destruct Hx as [Hx _]. apply (proj1 (sort_uniq_in _ _)) in Hx.
  apply in_map_iff in Hx. destruct Hx as (s & <- & Hs).
  specialize (HR _ _ A s Hs). rewrite hack_comments_length, map_length in HR. exact HR.
Qed.

Lemma dedent_chunk_length raw : length (dedent_chunk raw) = length raw.
Proof. destruct raw; [reflexivity | apply map_length]. Qed.

Lemma ps1_directives_breaks o ex : forall ps1 tab brk,
  ps1_directives o ex ps1 = Ok (tab, brk) -> forall y, In y brk -> In y ps1.
Proof.
  induction ps1 as [|s1 rest IH]; intros tab brk H y Hy.
  - injection H as _ <-. destruct Hy.
  - cbn [ps1_directives] in H.
    destruct (o_dirs o _) as [ds|e]; [|discriminate]. cbn [bind] in H.
    destruct (ps1_directives o ex rest) as [[tab0 brk0]|e]; [|discriminate]. cbn [bind] in H.
    specialize (IH tab0 brk0 eq_refl).
    destruct ds as [|d0 ds'].
    + injection H as _ <-. right. apply IH. exact Hy.
    + injection H as _ <-. destruct Hy as [<-|Hy]; [left; reflexivity|].
      apply in_app_or in Hy. destruct Hy as [Hy|Hy]; [|right; apply IH; exact Hy].
      destruct (d_inline d0); [|destruct Hy]. destruct rest as [|s2 r]; [destruct Hy|].
      destruct Hy as [<-|[]]. right; left; reflexivity.
Qed.

(* mk start end want mode makes one part (slice_example); the last, open part takes the want *)
Definition cut (mk : nat -> option nat -> list str -> cmode -> res part) (bs : list nat) (want : list str) (mode : cmode)
  : res (list part) :=
  do ps <- map_res (fun ab => mk (fst ab) (Some (snd ab)) [] M_exec) (consecutive_pairs bs);
  do lastp <- mk (last bs 0) None want mode;
  Ok (ps ++ [lastp]).

Lemma map_res_app {A B} (f : A -> res B) l1 l2 :
  map_res f (l1 ++ l2) = do a <- map_res f l1; do b <- map_res f l2; Ok (a ++ b).
Proof.
  induction l1 as [|x l1 IH]; cbn [app map_res bind].
  - destruct (map_res f l2); reflexivity.
  - destruct (f x); cbn [bind]; [|reflexivity]. rewrite IH.
    destruct (map_res f l1); cbn [bind]; [|reflexivity]. destruct (map_res f l2); reflexivity.
Qed.

Lemma slice_example_ok ea sa tab o n s1 s2 want mode p :
  slice_example ea sa tab o n s1 s2 want mode = Ok p ->
  exec_lines p = slice_to s1 s2 ea /\ orig_lines p = slice_to s1 s2 sa /\
  line_offset p = n + s1 /\ want_lines p = want.
Proof.
  unfold slice_example. destruct (lookup_nat s1 tab); [|destruct (o_dirs o _) as [ds|[]]]; intros [= <-]; cbn; auto.
Qed.

Lemma cut_cons mk a b bs want mode :
  cut mk (a :: b :: bs) want mode =
  do p <- mk a (Some b) [] M_exec; do ps <- cut mk (b :: bs) want mode; Ok (p :: ps).
Proof.
  unfold cut. change (consecutive_pairs (a :: b :: bs)) with ((a, b) :: consecutive_pairs (b :: bs)).
  change (last (a :: b :: bs) 0) with (last (b :: bs) 0). cbn [map_res fst snd].
  destruct (mk a _ _ _); cbn [bind]; [|reflexivity]. destruct (map_res _ _); cbn [bind]; [|reflexivity].
  destruct (mk (last _ _) _ _ _); reflexivity.
Qed.

(* cut and tiles go down the boundary list alike (cut_cons, tiles_cons) *)
Lemma cut_tiles ea sa tab o n want mode : forall bs ps,
  bs <> [] -> cut (slice_example ea sa tab o n) bs want mode = Ok ps ->
  map orig_lines ps = tiles bs sa /\ map exec_lines ps = tiles bs ea /\
  map line_offset ps = map (Nat.add n) bs /\
  map want_lines ps = repeat [] (length bs - 1) ++ [want].
Proof.
  induction bs as [|a bs IH]; intros ps NE; [contradiction|]. destruct bs as [|b bs].
  - unfold cut. cbn [consecutive_pairs map_res bind last].
    destruct (slice_example _ _ _ _ _ a None want mode) as [p|e] eqn:E; [|discriminate]. intros [= <-].
    apply slice_example_ok in E. destruct E as (E1 & E2 & E3 & E4). cbn. rewrite E1, E2, E3, E4. auto.
  - rewrite cut_cons. destruct (slice_example _ _ _ _ _ a (Some b) [] M_exec) as [p|e] eqn:E; [|discriminate]. cbn [bind].
    destruct (cut _ (b :: bs) want mode) as [r|e]; [|discriminate]. intros [= <-].
    apply slice_example_ok in E. destruct E as (E1 & E2 & E3 & E4).
    destruct (IH r ltac:(discriminate) eq_refl) as (I1 & I2 & I3 & I4).
    cbn [length Nat.sub] in I4. rewrite Nat.sub_0_r in I4.
    repeat split; [exact (f_equal2 cons E2 I1) | exact (f_equal2 cons E1 I2) | exact (f_equal2 cons E3 I3) |
                   exact (f_equal2 cons E4 I4)].
Qed.

(* 0, the breaks forced by directives, and the start of the last statement when it is evaluated on its own *)
Definition chunk_bounds (brk ps1 : list nat) (wants_eval : bool) : res (list nat) :=
  let bs := sort_uniq (0 :: brk) in
  if wants_eval then
    match last_opt ps1 with
    | None => Err E_Index
    | Some s2 => Ok (if Nat.eqb s2 (last bs 0) then bs else bs ++ [s2])
    end
  else Ok bs.

(* _package_chunk keeps the break list empty when no break is forced *)
Lemma forced_breaks brk :
  let brk' := match brk with [] => [] | _ => sort_uniq (0 :: brk) end in
  consecutive_pairs brk' = consecutive_pairs (sort_uniq (0 :: brk)) /\
  match consecutive_pairs brk' with [] => 0 | _ => match last_opt brk' with Some x => x | None => 0 end end
  = last (sort_uniq (0 :: brk)) 0.
Proof.
  destruct brk as [|b brk]; [split; reflexivity|]. cbv zeta iota.
  destruct (sort_uniq_zero_hd (b :: brk)) as [[|z t] ->]; [split; reflexivity|]. split; [reflexivity|].
  change (consecutive_pairs (0 :: z :: t)) with ((0, z) :: consecutive_pairs (z :: t)). cbv iota.
  rewrite (last_opt_last _ 0). reflexivity.
Qed.

Theorem package_chunk_cut o first more raw_want n :
  let src := dedent_chunk (first :: more) in
  let want := dedent_want (first :: more) raw_want in
  package_chunk o (first :: more) raw_want n =
  do loc <- locate_ps1 o src;
  do tb <- ps1_directives o (map (skipn 4) src) (fst loc);
  do bs <- chunk_bounds (snd tb) (fst loc) (nonempty want && match snd loc with M_exec => false | _ => true end);
  cut (slice_example (map (skipn 4) src) src (fst tb) o n) bs want (if nonempty want then snd loc else M_exec).
Proof.
  intros src want. unfold package_chunk.
  change (map (skipn (line_indent first)) (first :: more)) with src.
  change (map (skipn (line_indent first)) raw_want) with want.
  destruct (locate_ps1 o src) as [[ps1 hint]|e]; [|reflexivity]. cbn [bind fst snd].
  destruct (ps1_directives o (map (skipn 4) src) ps1) as [[tab brk]|e] eqn:PD; [|reflexivity]. cbn [bind fst snd].
  (* str unfolded: both sides spell the type of the want lines alike, so destruct finds every occurrence *)
  destruct (forced_breaks brk) as [-> ->]. unfold chunk_bounds, cut, str.
  set (bs := sort_uniq (0 :: brk)). set (mk := slice_example (map (skipn 4) src) src tab o n).
  destruct (_ && _); [|reflexivity].
  destruct ps1 as [|p ps1].
  { (* no statement: no directive and no break either, so ps1_linenos[-1] is the first thing to fail *)
    cbn in PD. injection PD as <- <-. reflexivity. }
  rewrite (last_opt_last _ 0). set (s2 := last (p :: ps1) 0).
  destruct (Nat.eqb s2 (last bs 0)); [reflexivity|]. cbn [bind].
  (* the last statement gets a part of its own: one more boundary, one more pair *)
  rewrite consecutive_pairs_snoc, map_res_app, last_last by (subst bs; destruct (sort_uniq_zero_hd brk) as [t ->]; discriminate).
  destruct (map_res _ (consecutive_pairs bs)) as [parts1|e]; [|reflexivity]. cbn [bind map_res fst snd].
  destruct (mk _ (Some s2) _ _) as [p2|e]; [|reflexivity]. cbn [bind].
  destruct (mk s2 None want _) as [lastp|e]; [|reflexivity]. cbn [bind]. rewrite <- app_assoc. reflexivity.
Qed.

Lemma chunk_bounds_ok brk ps1 we bs :
  Ascending ps1 -> (forall y, In y brk -> In y ps1) -> chunk_bounds brk ps1 we = Ok bs ->
  hd_error bs = Some 0 /\ Ascending bs /\ forall y, In y bs -> y = 0 \/ In y ps1.
Proof.
  intros Aps1 Hbrk. unfold chunk_bounds. set (bs1 := sort_uniq (0 :: brk)).
  assert (B1 : hd_error bs1 = Some 0 /\ Ascending bs1 /\ forall y, In y bs1 -> y = 0 \/ In y ps1).
  { split; [destruct (sort_uniq_zero_hd brk) as [t E]; subst bs1; rewrite E; reflexivity|].
    split; [apply sort_uniq_asc|]. intros y Hy. apply (proj1 (sort_uniq_in _ _)) in Hy. destruct Hy as [<-|Hy]; auto. }
  destruct we; [|intros [= <-]; exact B1].
  rewrite (last_opt_last _ 0). destruct ps1 as [|p ps] eqn:E; [discriminate|]. rewrite <- E in *.
  destruct (Nat.eqb _ _) eqn:EQ; intros [= <-]; [exact B1|].
  destruct B1 as (Hhd & Hasc & Hin). apply Nat.eqb_neq in EQ.
  assert (L : In (last ps1 0) ps1) by (rewrite E; apply last_in_ne; discriminate).
  assert (NE : bs1 <> []) by (intros N; rewrite N in Hhd; discriminate).
  split; [destruct bs1; [contradiction | exact Hhd]|]. split.
  - apply Ascending_snoc; [exact Hasc|].
    destruct (Hin _ (last_in_ne bs1 0 NE)) as [Z|Hy]; [lia|]. pose proof (Ascending_last_max ps1 _ Aps1 Hy). lia.
  - intros y Hy. apply in_app_or in Hy. destruct Hy as [Hy|[<-|[]]]; auto.
Qed.

Lemma package_chunk_tiles_from o raw_src raw_want lineno ps :
  package_chunk o raw_src raw_want lineno = Ok ps ->
  exists bs,
    (hd_error bs = Some O /\ Ascending bs /\
     map orig_lines ps = tiles bs (dedent_chunk raw_src) /\
     map exec_lines ps = tiles bs (map (skipn 4) (dedent_chunk raw_src)) /\
     map line_offset ps = map (Nat.add lineno) bs /\
     map want_lines ps = repeat [] (length bs - 1) ++ [dedent_want raw_src raw_want]) /\
    (AstInRange o -> forall y, In y bs -> y < length raw_src).
Proof.
  destruct raw_src as [|first more]; [discriminate|]. rewrite package_chunk_cut.
  destruct (locate_ps1 o _) as [[ps1 mode]|e] eqn:LOC; [|discriminate]. cbn [bind fst snd].
  destruct (ps1_directives o _ ps1) as [[tab brk]|e] eqn:PD; [|discriminate]. cbn [bind fst snd].
  destruct (chunk_bounds brk ps1 _) as [bs|e] eqn:CB; [|discriminate]. cbn [bind]. intros CUT.
  apply chunk_bounds_ok in CB; [|exact (locate_ps1_asc _ _ _ _ LOC) | exact (ps1_directives_breaks _ _ _ _ _ PD)].
  destruct CB as (Hhd & Hasc & Hin).
  apply cut_tiles in CUT; [|intros N; rewrite N in Hhd; discriminate]. destruct CUT as (C1 & C2 & C3 & C4).
  exists bs. split; [repeat split; assumption|].
  (* a boundary is 0 or the start of a statement *)
  intros HR y Hy. destruct (Hin y Hy) as [->|Hy']; [apply Nat.lt_0_succ|].
  rewrite <- (dedent_chunk_length (first :: more)). exact (locate_ps1_in_range _ _ _ _ HR LOC y Hy').
Qed.

Theorem package_chunk_tiles o raw_src raw_want lineno ps :
  package_chunk o raw_src raw_want lineno = Ok ps ->
  PartsTile lineno (dedent_chunk raw_src) (dedent_want raw_src raw_want) ps.
Proof. intros H. destruct (package_chunk_tiles_from _ _ _ _ _ H) as (bs & T & _). exists bs. exact T. Qed.

Lemma parts_tile_partition n src want ps : PartsTile n src want ps ->
  concat (map orig_lines ps) = src /\ concat (map exec_lines ps) = map (skipn 4) src /\ concat (map want_lines ps) = want.
Proof.
  intros (bs & Hhd & Hasc & E1 & E2 & _ & E4).
  rewrite E1, E2, E4, !tiles_concat by assumption. repeat split.
  rewrite concat_app. simpl. rewrite app_nil_r.
  clear E4. induction (length bs - 1) as [|k IH]; [reflexivity | simpl; exact IH].
Qed.

Corollary package_chunk_partition o raw_src raw_want lineno ps :
  package_chunk o raw_src raw_want lineno = Ok ps ->
  concat (map orig_lines ps) = dedent_chunk raw_src /\
  concat (map exec_lines ps) = map (skipn 4) (dedent_chunk raw_src) /\
  concat (map want_lines ps) = dedent_want raw_src raw_want.
Proof. intros H. exact (parts_tile_partition _ _ _ _ (package_chunk_tiles _ _ _ _ _ H)). Qed.

(* _package_groups with the packager of one chunk left open *)
Definition package_with (pc : oracles -> list str -> list str -> nat -> res (list part)) :=
  fix go (o : oracles) (chunks : list chunk) (lineno : nat) : res (list item) :=
    match chunks with
    | [] => Ok []
    | TextChunk ls :: rest => do r <- go o rest (lineno + length ls); Ok (IText (join_nl ls) :: r)
    | CodeChunk s w :: rest =>
        do ps <- pc o s w lineno; do r <- go o rest (lineno + length s + length w); Ok (map IPart ps ++ r)
    end.

Lemma package_groups_with : package_groups = package_with package_chunk.
Proof. reflexivity. Qed.
Lemma package_groups_repl_with : package_groups_repl = package_with package_chunk_repl.
Proof. reflexivity. Qed.

(* Tiled and LaidOut have constructors of just this shape *)
Lemma package_with_ind pc o (R : nat -> list chunk -> list item -> Prop) :
  (forall n, R n [] []) ->
  (forall n ls rest r, R (n + length ls) rest r -> R n (TextChunk ls :: rest) (IText (join_nl ls) :: r)) ->
  (forall n s w rest ps r, pc o s w n = Ok ps -> R (n + length s + length w) rest r ->
     R n (CodeChunk s w :: rest) (map IPart ps ++ r)) ->
  forall chunks n items, package_with pc o chunks n = Ok items -> R n chunks items.
Proof.
  intros Rnil Rtext Rcode. induction chunks as [|c rest IH]; intros n items H.
  - injection H as <-. apply Rnil.
  - destruct c as [ls|s w]; cbn [package_with] in H.
    + destruct (package_with pc o rest _) as [r|e] eqn:E; [|discriminate]. injection H as <-. apply Rtext, IH, E.
    + destruct (pc o s w n) as [ps|e] eqn:PC; [|discriminate]. cbn [bind] in H.
      destruct (package_with pc o rest _) as [r|e] eqn:E; [|discriminate]. injection H as <-.
      apply Rcode; [exact PC | apply IH, E].
Qed.

Theorem package_groups_tiled o : forall chunks lineno items,
  package_groups o chunks lineno = Ok items -> Tiled lineno chunks items.
Proof.
  rewrite package_groups_with. apply package_with_ind; [exact Tiled_nil | exact Tiled_text |].
  intros n s w rest ps r PC. apply Tiled_code. exact (package_chunk_tiles o _ _ _ _ PC).
Qed.

Lemma parse_parsed o s items : parse o s = Parsed items ->
  exists ll gs, label_lines (o_bal o) (normalize_docstring s) = Ok ll /\ group_lines ll = Ok gs /\
                package_groups o gs 0 = Ok items.
Proof.
  unfold parse. destruct (label_lines _ _) as [ll|e]; [|destruct e; discriminate].
  destruct (group_lines ll) as [gs|e] eqn:G; [|destruct e; discriminate].
  destruct (package_groups o gs 0) as [its|e] eqn:P; [|destruct e; discriminate].
  intros [= <-]. exists ll, gs. auto.
Qed.

Theorem parse_partition o s items :
  parse o s = Parsed items ->
  exists ll gs,
    length ll = length (srclines (normalize_docstring s)) /\
    Forall2 SameLineUpToHack ll (srclines (normalize_docstring s)) /\
    flatten_chunks gs = map snd ll /\
    Tiled 0 gs items.
Proof.
  intros H. apply parse_parsed in H. destruct H as (ll & gs & L & G & P). exists ll, gs.
  destruct (label_lines_partition _ _ _ L) as [A B].
  repeat split; [exact A | exact B | apply group_lines_partition; exact G | apply package_groups_tiled with (o := o); exact P].
Qed.

(* boundaries inside the source (AstInRange): a slice reaching beyond the end is shorter than b - a; then the offsets do
   not add up and the last part may be empty *)
Lemma tiles_consecutive (src : list str) n : forall bs a ps,
  Ascending (a :: bs) -> (forall y, In y (a :: bs) -> y < length src) ->
  map line_offset ps = map (Nat.add n) (a :: bs) -> map orig_lines ps = tiles (a :: bs) src ->
  Consecutive (n + a) ps (n + length src) /\ Forall (fun p => orig_lines p <> []) ps.
Proof.
  assert (NE : forall l : list str, 0 < length l -> l <> []) by (intros [|x l] H; [inversion H | discriminate]).
  induction bs as [|b bs IH]; intros a ps HA HB HO HT; pose proof (HB a (or_introl eq_refl)) as Ha.
  - destruct ps as [|p [|q r]]; try discriminate. injection HO as O1. injection HT as T1.
    assert (L : length (orig_lines p) = length src - a) by (rewrite T1; apply skipn_length). split.
    + split; [exact O1 | cbn [Consecutive]; lia].
    + constructor; [apply NE; lia | constructor].
  - destruct ps as [|p r]; [discriminate|]. rewrite tiles_cons in HT. injection HO as O1 O2. injection HT as T1 T2.
    destruct HA as [Hab HA]. pose proof (HB b (or_intror (or_introl eq_refl))) as Hb.
    assert (L : length (orig_lines p) = b - a) by (rewrite T1; apply slice_length; lia).
    destruct (IH b r HA (fun y Hy => HB y (or_intror Hy)) O2 T2) as [C F]. split.
    + split; [exact O1|]. rewrite L. replace (n + a + (b - a)) with (n + b) by lia. exact C.
    + constructor; [apply NE; lia | exact F].
Qed.

Theorem package_chunk_layout o raw_src raw_want lineno ps :
  AstInRange o -> package_chunk o raw_src raw_want lineno = Ok ps ->
  Consecutive lineno ps (lineno + length raw_src) /\ Forall (fun p => orig_lines p <> []) ps.
Proof.
  intros HR H. destruct (package_chunk_tiles_from _ _ _ _ _ H) as (bs & (Hhd & Hasc & E1 & _ & E3 & _) & R).
  destruct bs as [|a bs]; [discriminate|]. injection Hhd as ->.
  rewrite <- (dedent_chunk_length raw_src). rewrite <- (Nat.add_0_r lineno) at 1.
  apply tiles_consecutive with (bs := bs); try assumption. rewrite dedent_chunk_length. exact (R HR).
Qed.

Corollary package_chunk_consecutive o raw_src raw_want lineno ps :
  AstInRange o -> package_chunk o raw_src raw_want lineno = Ok ps ->
  Consecutive lineno ps (lineno + length raw_src).
Proof. intros HR H. exact (proj1 (package_chunk_layout _ _ _ _ _ HR H)). Qed.

Theorem package_groups_laid_out o : AstInRange o -> forall chunks lineno items,
  package_groups o chunks lineno = Ok items -> LaidOut lineno chunks items.
Proof.
  intros HR. rewrite package_groups_with. apply package_with_ind; [exact LaidOut_nil | exact LaidOut_text |].
  intros n s w rest ps r PC. apply LaidOut_code. exact (package_chunk_consecutive o _ w _ _ HR PC).
Qed.

(* the hypotheses are satisfiable: `>>> a` / `>>> b` / `w` under an oracle that answers as CPython does on them (every
   slice balanced, one expression statement per line, no directive) *)
Definition demo_oracle : oracles :=
  mkOracles (fun _ => Ok T_ok)
            (fun lines => Ok (map (fun i => mkStmt i None true) (seq 0 (length lines))))
            (fun _ => Ok false) (fun _ => Ok []).

Lemma demo_oracle_in_range : AstInRange demo_oracle.
Proof.
  intros lines stmts H s Hs. simpl in H. inversion H; subst. apply in_map_iff in Hs.
  destruct Hs as (i & <- & Hi). apply in_seq in Hi. unfold st_line. simpl. lia.
Qed.

Definition demo_src : list str := [[62;62;62;32;97]; [62;62;62;32;98]]%N.
Definition demo_want : list str := [[119]]%N.

Example demo_chunk_two_parts :
  exists p1 p2, package_chunk demo_oracle demo_src demo_want 7 = Ok [p1; p2] /\
    line_offset p1 = 7 /\ line_offset p2 = 8 /\ want_lines p1 = [] /\ want_lines p2 = demo_want /\
    Consecutive 7 [p1; p2] 9.
Proof. vm_compute. eexists. eexists. repeat split. Qed.

Lemma ascending_zero_tl ps1 : Ascending ps1 -> Ascending (0 :: tl ps1).
Proof.
  intros H. destruct ps1 as [|p0 rest]; [exact I|]. cbn [tl]. apply Ascending_cons in H. destruct H as [Hp H].
  apply Ascending_cons. split; [|exact H]. intros y Hy. specialize (Hp y Hy). lia.
Qed.

(* DoctestParser(simulate_repl=True): the boundaries are 0 and the statement starts after the first *)
Theorem package_chunk_repl_tiles o raw_src raw_want lineno ps :
  package_chunk_repl o raw_src raw_want lineno = Ok ps ->
  PartsTile lineno (dedent_chunk raw_src) (dedent_want raw_src raw_want) ps.
Proof.
  unfold package_chunk_repl. destruct raw_src as [|first more]; [discriminate|].
  change (map (skipn (line_indent first)) (first :: more)) with (dedent_chunk (first :: more)).
  destruct (locate_ps1 o _) as [[ps1 mode_hint]|e] eqn:LOC; [|discriminate]. cbn [bind].
  destruct (ps1_directives o _ ps1) as [[tab brk]|e]; [|discriminate]. cbn [bind].
  (* what is left of package_chunk_repl is `cut` along 0 :: tl ps1, by conversion *)
  intros H. apply (cut_tiles _ _ _ _ _ _ _ (0 :: tl ps1)) in H; [|discriminate].
  exists (0 :: tl ps1). split; [reflexivity|]. split; [|exact H].
  apply ascending_zero_tl. exact (locate_ps1_asc _ _ _ _ LOC).
Qed.

Theorem package_groups_repl_tiled o : forall chunks lineno items,
  package_groups_repl o chunks lineno = Ok items -> Tiled lineno chunks items.
Proof.
  rewrite package_groups_repl_with. apply package_with_ind; [exact Tiled_nil | exact Tiled_text |].
  intros n s w rest ps r PC. apply Tiled_code. exact (package_chunk_repl_tiles o _ _ _ _ PC).
Qed.

Theorem parse_repl_partition o s items :
  parse_repl o s = Parsed items ->
  exists ll gs,
    length ll = length (srclines (normalize_docstring s)) /\
    Forall2 SameLineUpToHack ll (srclines (normalize_docstring s)) /\
    flatten_chunks gs = map snd ll /\
    Tiled 0 gs items.
Proof.
  unfold parse_repl. destruct (label_lines _ _) as [ll|e] eqn:L; [|destruct e; discriminate].
  destruct (group_lines ll) as [gs|e] eqn:G; [|destruct e; discriminate].
  destruct (package_groups_repl o gs 0) as [its|e] eqn:P; [|destruct e; discriminate].
  intros [= <-]. exists ll, gs.
  destruct (label_lines_partition _ _ _ L) as [A B].
  repeat split; [exact A | exact B | apply group_lines_partition; exact G | apply package_groups_repl_tiled with (o := o); exact P].
Qed.
