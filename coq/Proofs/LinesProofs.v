(* LinesProofs.v — reported line numbers point at the real lines (C08): the arithmetic. *)
From XD Require Import Model.Lines.
Open Scope N_scope.

(* Tiles a rs b: the (offset, length) pairs rs lie back to back from a to b, none of them empty *)
Inductive Tiles : nat -> list (nat * nat) -> nat -> Prop :=
| tiles_nil a : Tiles a [] a
| tiles_cons a len r b : (0 < len)%nat -> Tiles (a + len) r b -> Tiles a ((a, len) :: r) b.

Lemma group_runs_tile ids : forall cur len off,
  Tiles off (group_runs ids cur len off) (off + len + length ids).
Proof.
  enough (G : forall cur len off b, b = (off + len + length ids)%nat -> Tiles off (group_runs ids cur len off) b) by eauto.
  induction ids as [|g r IH]; intros cur len off b ->; simpl.
  - destruct len; rewrite !Nat.add_0_r; [constructor | constructor; [lia | constructor]].
  - destruct (Nat.eqb g cur); [|destruct len; [|constructor; [lia|]]]; apply IH; lia.
Qed.

Lemma Tiles_le a rs b : Tiles a rs b -> (a <= b)%nat.
Proof. induction 1; lia. Qed.

Lemma fold_sum_shift (l0 : list (nat * nat)) : forall x,
  fold_left (fun acc ol => (acc + snd ol)%nat) l0 x = (x + fold_left (fun acc ol => (acc + snd ol)%nat) l0 0)%nat.
Proof. induction l0 as [|y l0 IHl]; intros x; simpl; [lia|]. rewrite IHl. rewrite (IHl (snd y)). lia. Qed.

(* curr_offset of parse_freeform_docstr_examples: every text part and every ignored doctest part in front of the first
   kept part advances it by its number of lines; the first kept part fixes it *)
Lemma freeform_go_kept items : forall ps ig k off, exists k', freeform_go items ps ig (S k) off = (off, S k').
Proof.
  induction items as [|[n sk|n] r IH]; intros ps ig k off; simpl; [eexists; reflexivity | apply IH |].
  destruct (ig || ps); apply IH.
Qed.

Lemma freeform_offset_frozen items ps ig k off : (0 < k)%nat -> fst (freeform_go items ps ig k off) = off.
Proof. destruct k; [lia|]. intros _. destruct (freeform_go_kept items ps ig k off) as [k' ->]. reflexivity. Qed.

Lemma freeform_text_step n sk r ps ig off :
  freeform_go (FText n sk :: r) ps ig 0 off = freeform_go r sk false 0 (off + n).
Proof. reflexivity. Qed.
Lemma freeform_ignored_step n r ps ig off : ig || ps = true ->
  freeform_go (FPart n :: r) ps ig 0 off = freeform_go r false true 0 (off + n).
Proof. intros H. simpl. rewrite H. reflexivity. Qed.
Lemma freeform_first_kept n r ps ig off : ig || ps = false ->
  fst (freeform_go (FPart n :: r) ps ig 0 off) = off.
Proof. intros H. simpl. rewrite H. apply freeform_offset_frozen. lia. Qed.

Lemma freeform_go_texts pre n rest :
  (forall it, In it pre -> match it with FText _ sk => sk = false | FPart _ => False end) -> forall off,
  freeform_go (pre ++ FPart n :: rest) false false 0 off =
  freeform_go rest false false 1
    (fold_left (fun a it => a + match it with FText k _ => k | FPart k => k end) pre off)%nat.
Proof.
  induction pre as [|[k sk|k] pre IH]; intros H off; [reflexivity | | destruct (H _ (or_introl eq_refl))].
  cbn [app]. rewrite freeform_text_step, (H _ (or_introl eq_refl)). apply IH. intros it Hit. apply H. right. exact Hit.
Qed.
