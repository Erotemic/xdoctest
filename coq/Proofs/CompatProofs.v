(* CompatProofs.v — the texts on which the standard doctest module accepts and the faithful model of xdoctest does not
   (findings F6, F6d, F6f-F6i): the witnesses of C20_compat_refuted_F6 ... _F6i. *)
From XD Require Import Model.StdOutput.
Open Scope N_scope.

(* F6: an expression example that prints and returns: stdout followed by the repr is what the standard module
   wants; the faithful model rejects it *)
Definition f6_stdout : str := [105;110;32;102;32;51;10].           (* "in f 3\n" *)
Definition f6_repr : str := [53].                                   (* "5" *)
Definition f6_want : str := [105;110;32;102;32;51;10;53].           (* "in f 3\n5" *)

(* finding F6f: under ELLIPSIS the standard matcher accepts the got b'abc' for the want b... ; xdoctest's comparison removes
   the prefix letter from the got only and rejects *)
Definition f6f_want : str := [98;46;46;46]%N.      (* b... *)
Definition f6f_got : str := [98;39;97;98;99;39]%N.       (* b'abc' *)

(* F6g, F6h, F6i, F6d: each violates one hypothesis of StdOutputFull.std_output_accepted, which therefore cannot be
   dropped *)
Definition f6g_want : str := BLANKLINE.                                  (* the want line <BLANKLINE> ... *)
Definition f6g_got : str := BLANKLINE ++ [NL].                           (* ... for an output that IS the text <BLANKLINE> *)

Definition f6h_want : str := [97;46;46;46]%N.                            (* a... *)
Definition f6h_got : str := [97;98;13;99;10]%N.                          (* "ab\rc\n": a carriage return inside the line *)

Definition f6i_want : str := [46;27;91;48;109;46;46;46]%N.               (* ".<ESC>[0m..." *)
Definition f6i_got : str := [46;27;91;48;109;97;10]%N.                   (* ".<ESC>[0ma\n" *)

Definition f6d_want : str := [49]%N.                                     (* 1 *)
Definition f6d_got : str := TRUE_NL.                                     (* "True\n" *)
