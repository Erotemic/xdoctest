(* SourceRun.v — the two halves of C01 end to end over the models (Props/C01.v puts them together): when the loop runs to
   its end (r_end = E_running: no failure, no ExitTestException, nothing escaping), the parts handed to exec are the parts
   that were not skipped, in order, so all of them when nothing is skipped; the code of the parts of a parsed docstring is
   the de-prompted source lines of its chunks, in order. *)
From XD Require Import Model.RunLoop Spec.Partition Proofs.ChunkProofs Proofs.RunProofs Proofs.C01Proofs Proofs.Reparse.
Local Open Scope nat_scope.

Definition unskipped (sk : list nat) (k : nat) : list nat := filter (fun j => negb (mem_nat j sk)) (seq 0 k).

Lemma mem_nat_app x l m : mem_nat x (l ++ m) = mem_nat x l || mem_nat x m.
Proof. induction l as [|y l IH]; cbn; [reflexivity | rewrite IH; apply orb_assoc]. Qed.

Lemma unskipped_skip sk k : unskipped (sk ++ [k]) (S k) = unskipped sk k.
Proof.
  unfold unskipped. rewrite seq_S, filter_app. cbn [Nat.add filter].
  rewrite mem_nat_app. cbn. rewrite Nat.eqb_refl, orb_true_r, app_nil_r.
  apply filter_ext_in. intros j Hj. apply in_seq in Hj. rewrite mem_nat_app. cbn.
  replace (j =? k) with false by (symmetry; apply Nat.eqb_neq; lia). rewrite !orb_false_r. reflexivity.
Qed.

Lemma unskipped_exec sk k : (forall j, In j sk -> j < k) -> unskipped sk (S k) = unskipped sk k ++ [k].
Proof.
  intros HB. unfold unskipped. rewrite seq_S, filter_app. cbn [Nat.add filter].
  destruct (mem_nat k sk) eqn:E; [apply mem_nat_in in E; specialize (HB k E); lia|]. reflexivity.
Qed.

Lemma dealt_unskipped k sk ex : Dealt k sk ex -> ex = unskipped sk k.
Proof.
  induction 1 as [|k a b D IH|k a b D IH]; [reflexivity| |].
  - rewrite unskipped_skip. exact IH.
  - rewrite unskipped_exec; [f_equal; exact IH|]. intros j Hj. apply (dealt_in _ _ _ D). auto.
Qed.

Section RunSkip.
Variable requires_met : str -> res bool.
Variable cfg : config.
Variable oc : nat -> outcome.

Theorem executed_are_the_unskipped ps :
  let st := run_parts requires_met cfg oc (init_state cfg) 0 ps in
  r_end st = E_running -> r_executed st = unskipped (r_skipped st) (length ps).
Proof.
  intros st HE. destruct (run_cases requires_met cfg oc ps) as [G|(_ & _ & _ & _ & _ & _ & Hend)]; [|contradiction].
  apply dealt_unskipped, G.
Qed.

Corollary all_executed_in_order ps :
  let st := run_parts requires_met cfg oc (init_state cfg) 0 ps in
  r_end st = E_running -> r_skipped st = [] -> r_executed st = seq 0 (length ps).
Proof.
  intros st HE HS. subst st. rewrite (executed_are_the_unskipped ps HE), HS.
  unfold unskipped. induction (seq 0 (length ps)) as [|x l IH]; cbn; [reflexivity | f_equal; exact IH].
Qed.
End RunSkip.

(* the code of the parts, chunk by chunk *)
Definition chunk_exec (c : chunk) : list str :=
  match c with TextChunk _ => [] | CodeChunk s _ => map (skipn 4) (dedent_chunk s) end.

Lemma tiled_exec : forall gs n items, Tiled n gs items ->
  concat (map exec_lines (parts_of items)) = concat (map chunk_exec gs).
Proof. apply tiled_concat; [reflexivity|]. intros n s w ps T. apply (parts_tile_partition _ _ _ _ T). Qed.
