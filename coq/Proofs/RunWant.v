(* RunWant.v — DoctestPart.check characterised: which texts a want is compared with, and when it counts as satisfied. *)
From XD Require Import Model.RunLoop.
Open Scope N_scope.

Lemma cands_rev_snoc l u : forall acc,
  trailing_candidates_rev (l ++ [u]) acc = trailing_candidates_rev l acc ++ [u ++ concat (rev l) ++ acc].
Proof.
  induction l as [|g l IH]; intros acc; simpl; [reflexivity|].
  rewrite IH, concat_app. simpl. rewrite app_nil_r, <- app_assoc. reflexivity.
Qed.

Lemma candidates_cons u um got :
  trailing_candidates (u :: um) got = trailing_candidates um got ++ [concat (u :: um ++ [got])].
Proof. unfold trailing_candidates. simpl rev. rewrite cands_rev_snoc, rev_involutive, app_nil_r. reflexivity. Qed.

(* the texts a want is compared with: every suffix of the outputs since the previous want that keeps got, joined *)
Definition Candidate (unmatched : list str) (got c : str) : Prop :=
  exists k, (k <= length unmatched)%nat /\ c = concat (skipn k (unmatched ++ [got])).

Lemma candidates_spec um got c :
  In c (trailing_candidates um got) <-> Candidate um got c.
Proof.
  unfold Candidate. induction um as [|u um IH].
  - split.
    + intros [<-|[]]. exists O. split; [lia | reflexivity].
    + intros ([|k] & Hk & ->); [left; reflexivity | inversion Hk].
  - rewrite candidates_cons, in_app_iff, IH. split.
    + intros [(k & Hk & ->) | [<-|[]]]; [exists (S k) | exists O]; (split; [simpl; lia | reflexivity]).
    + intros ([|k] & Hk & ->); [right; left; reflexivity | left; exists k; split; [simpl in Hk; lia | reflexivity]].
Qed.

Lemma candidate_all um got : Candidate um got (concat (um ++ [got])).
Proof. exists O. split; [lia | reflexivity]. Qed.
Lemma candidate_last um got : Candidate um got got.
Proof.
  exists (length um). split; [lia|]. rewrite skipn_app, skipn_all, Nat.sub_diag. simpl.
  rewrite app_nil_r. reflexivity.
Qed.

(* check_got_vs_want = GW_ok as a proposition: once a value was evaluated, an empty stdout text is not compared with
   the want; the repr of the value is *)
Definition CandOK (fl : flags) (want : str) (ev : got_eval) (c : str) : Prop :=
  match ev with
  | NotEvaled => check_output fl c want = true
  | EvalRepr r =>
      (c <> [] /\ check_output fl c want = true) \/ check_output fl r want = true
  | EvalReprRaises => c <> [] /\ check_output fl c want = true
  end.

Lemma gvw_ok_iff fl want c ev :
  check_got_vs_want fl want c ev = GW_ok <-> CandOK fl want ev c.
Proof.
  unfold check_got_vs_want, CandOK.
  destruct ev as [|r|]; [|destruct c as [|x c]..]; cbn [is_empty];
    destruct (check_output fl _ want); try destruct (check_output fl r want); intuition congruence.
Qed.

Lemma check_candidates_ok fl want ev cands :
  check_candidates fl want ev cands = GW_ok ->
  exists c, In c cands /\ check_got_vs_want fl want c ev = GW_ok.
Proof.
  intros H. apply Exists_exists. induction cands as [|c cs IH]; simpl in H; [discriminate|].
  destruct (check_got_vs_want fl want c ev) eqn:E; try discriminate; [left; exact E | right; exact (IH H)].
Qed.

Lemma check_candidates_gotwant fl want ev cands :
  check_candidates fl want ev cands = GW_gotwant <->
  forall c, In c cands -> check_got_vs_want fl want c ev = GW_gotwant.
Proof.
  induction cands as [|c cs IH]; simpl.
  - split; [intros _ c [] | reflexivity].
  - split.
    + intros H c' [<-|Hin]; destruct (check_got_vs_want fl want c ev); try discriminate; [reflexivity | apply IH; assumption].
    + intros H. rewrite (H c (or_introl eq_refl)). apply IH. intros c' Hin. apply H. right. exact Hin.
Qed.

(* a value whose repr raises ends the comparison with an error at the first candidate that does not match *)
Definition ReprSafe (ev : got_eval) : Prop := ev <> EvalReprRaises.

Lemma gvw_safe fl want c ev : ReprSafe ev ->
  check_got_vs_want fl want c ev = GW_ok \/ check_got_vs_want fl want c ev = GW_gotwant.
Proof.
  unfold ReprSafe, check_got_vs_want. destruct ev as [|r|]; [| |congruence]; intros _.
  - destruct (check_output fl c want); tauto.
  - destruct (is_empty c); destruct (check_output fl r want); destruct (check_output fl c want); tauto.
Qed.

Theorem part_check_gotwant_iff fl want um got ev :
  (part_check fl want um got ev = GW_gotwant <->
   forall c, Candidate um got c -> check_got_vs_want fl want c ev = GW_gotwant).
Proof.
  unfold part_check. rewrite check_candidates_gotwant. split; intros H c Hc; apply H; apply candidates_spec; exact Hc.
Qed.

Lemma part_check_safe fl want um out ev : ReprSafe ev ->
  part_check fl want um out ev = GW_ok \/ part_check fl want um out ev = GW_gotwant.
Proof.
  intros Hs. unfold part_check. induction (trailing_candidates um out) as [|c cs IH]; cbn; [right; reflexivity|].
  destruct (gvw_safe fl want c ev Hs) as [->| ->]; [left; reflexivity | exact IH].
Qed.

Theorem part_check_ok_iff fl want um got ev : ReprSafe ev ->
  (part_check fl want um got ev = GW_ok <->
   exists c, Candidate um got c /\ CandOK fl want ev c).
Proof.
  intros Hs. unfold part_check. split.
  - intros H. destruct (check_candidates_ok _ _ _ _ H) as (c & Hin & Hc).
    exists c. split; [apply candidates_spec; exact Hin | apply gvw_ok_iff; exact Hc].
  - intros (c & Hc & Hok). destruct (part_check_safe fl want um got ev Hs) as [E|E]; [exact E|].
    rewrite part_check_gotwant_iff in E. apply gvw_ok_iff in Hok. rewrite (E c Hc) in Hok. discriminate.
Qed.
