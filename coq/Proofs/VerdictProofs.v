(* VerdictProofs.v — the pytest plugin (run(on_error='raise'), mode pytest, then anything_ran) and the native runner
   (run(on_error='return')) give the same verdict under RunEscape's hypotheses (C15). *)
From XD Require Import Model.Runner Proofs.RunDecide Proofs.RunProofs Proofs.RunEscape.
Open Scope N_scope.

Section Ran.
Variable requires_met : str -> res bool.
Variable cfg : config.
Variable oc : nat -> outcome.
Hypothesis Htotal : OracleTotal requires_met.

(* r_failed = None cannot be dropped: a directive error or an import failure at the first part that is not skipped
   logs nothing either *)
Theorem anything_ran_iff ps :
  let st := final requires_met cfg oc ps in
  r_failed st = None -> (anything_ran st = false <-> length (r_skipped st) = length ps).
Proof.
  intros st. subst st. unfold anything_ran.
  destruct (run_cases requires_met cfg oc ps) as [G|(s & k & p & G & Hk & -> & Hend)].
  - intros _. pose proof (dealt_length _ _ _ (go_dealt _ _ G)) as C. rewrite <- (go_logged _ _ G), map_length in C.
    destruct (r_logged _); cbn in *; split; (discriminate || lia).
  - pose proof (dealt_length _ _ _ (go_dealt _ _ G)) as C.
    destruct (step_running requires_met cfg oc s k p (go_running _ _ G)) as [q U|e _|rs _ _|rs _ _ _|rs _].
    + contradiction (part_update_total _ Htotal _ _ _ U).
    + discriminate.
    + contradiction Hend. reflexivity.
    + discriminate.
    + destruct (part_effect_of _ _ _ _); cbn; try discriminate; intros _;
        destruct (r_logged s); (split; [discriminate | lia]).
Qed.
End Ran.

(* the two settings of on_error differ only in the way a recorded failure ends the loop *)
Definition raising (s : rstate) : rstate :=
  match r_failed s with Some (_, f) => set_end s (E_raise f) | None => s end.

Section Raising.
Variable requires_met : str -> res bool.
Variable oc : nat -> outcome.
Variables cfgN cfgP : config.
Hypothesis HN : c_on_error cfgN = OE_return.
Hypothesis HP : c_on_error cfgP = OE_raise.
Hypothesis Himp : c_import_ok cfgN = c_import_ok cfgP.

Lemma step_raising s i p : r_end s = E_running -> r_failed s = None ->
  step requires_met cfgP oc s i p = raising (step requires_met cfgN oc s i p).
Proof.
  (* both steps leave s in the same one of the five ways (the twenty mixed cases contradict each other); the results
     differ in fail_end only *)
  intros E F.
  destruct (step_running requires_met cfgN oc s i p E) as [q U|e U|rs U K|rs U K M|rs [_ U K M]];
    destruct (step_running requires_met cfgP oc s i p E) as [q' U'|e' U'|rs' U' K'|rs' U' K' M'|rs' [_ U' K' M']];
    rewrite <- ?Himp in *; try congruence;
    try (replace rs' with rs by congruence); unfold raising, fail_at, after, fail_end; cbn; rewrite ?F, ?HN, ?HP;
    try reflexivity.
  - congruence.
  - destruct (part_effect_of _ _ _ _); cbn; rewrite ?F; reflexivity.
Qed.

Lemma run_parts_raising ps : forall s k, Going s k ->
  run_parts requires_met cfgP oc s k ps = raising (run_parts requires_met cfgN oc s k ps).
Proof.
  induction ps as [|p ps IH]; intros s k G; cbn [run_parts].
  - unfold raising. rewrite (go_nofail _ _ G). reflexivity.
  - rewrite (step_raising s k p (go_running _ _ G) (go_nofail _ _ G)).
    destruct (r_end (step requires_met cfgN oc s k p)) eqn:E.
    1: pose proof (going_step _ _ _ _ _ _ G E) as G'; unfold raising at 1; rewrite (go_nofail _ _ G'); apply IH, G'.
    all: rewrite !run_parts_frozen; [reflexivity|congruence|unfold raising; destruct (r_failed _) as [[j f0]|]; cbn; congruence].
Qed.
End Raising.

Section Same.
Variable requires_met : str -> res bool.
Variable oc : nat -> outcome.
Variables cfgN cfgP : config.
Hypothesis HN : c_on_error cfgN = OE_return.
Hypothesis HP : c_on_error cfgP = OE_raise.
Hypothesis HNm : c_pytest_mode cfgN = false.
Hypothesis HPm : c_pytest_mode cfgP = true.
Hypothesis Himp : c_import_ok cfgN = c_import_ok cfgP.
Hypothesis Hds : c_default_state cfgN = c_default_state cfgP.
Hypothesis Hrk : c_report_key cfgN = c_report_key cfgP.
Hypothesis Hframe : HasDoctestFrame oc.
Hypothesis Hbase : NoBaseException oc.
Hypothesis Htotal : OracleTotal requires_met.

Theorem same_verdict ps :
  exists v, native_verdict (run requires_met cfgN oc ps) = Some v /\
            pytest_verdict (run requires_met cfgP oc ps) = Some v.
Proof.
  pose proof (run_parts_tame requires_met cfgN oc HN Hframe Hbase Htotal ps (init_state cfgN) 0%nat
                (or_introl eq_refl)) as T.
  pose proof (anything_ran_iff requires_met cfgN oc Htotal ps) as A.
  unfold run. replace (init_state cfgP) with (init_state cfgN) by (unfold init_state; rewrite Hds, Hrk; reflexivity).
  rewrite (run_parts_raising requires_met oc cfgN cfgP HN HP Himp ps _ _ (going_init cfgN)), HNm, HPm, andb_false_r, andb_true_r.
  change (run_parts requires_met cfgN oc (init_state cfgN) 0 ps) with (final requires_met cfgN oc ps) in *.
  set (st := final requires_met cfgN oc ps) in *. cbn zeta in A.
  exists (verdict_of_summary (post_run (length ps) st)). split.
  - destruct T as [-> |[-> | ->]]; reflexivity.
  - unfold raising, verdict_of_summary, post_run. cbn [s_failed s_skipped]. destruct (r_failed st) as [[j f]|] eqn:F; cbn.
    + reflexivity.
    + (* nothing failed: something was logged iff not every part was skipped, so both say skipped or both say passed *)
      assert (R : anything_ran st = negb (length (r_skipped st) =? length ps)%nat).
      { specialize (A eq_refl). destruct (Nat.eqb_spec (length (r_skipped st)) (length ps)) as [L|L]; cbn.
        - apply A, L.
        - destruct (anything_ran st); [reflexivity | contradiction L; apply A; reflexivity]. }
      destruct T as [-> |[-> | ->]]; destruct (_ =? _)%nat; cbn in R |- *; rewrite ?F, ?R; reflexivity.
Qed.
End Same.
