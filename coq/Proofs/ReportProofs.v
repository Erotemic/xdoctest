(* ReportProofs.v — the part breakdown of the failure report (C09, rendering clause): every part that was not skipped is
   listed once, in order, split at the failing part. bd_go carries xdoctest's tindex (which of the three headings is being
   filled). *)
From XD Require Import Model.Report.
Local Open Scope nat_scope.

(* what the parts in `its` put under one heading: the entry of each unskipped one, in order *)
Definition entries (lg : list (nat * str)) (skipped : list nat) (its : list (nat * str)) : list str :=
  concat (map (fun it => if mem_nat (fst it) skipped then [] else bd_entry lg (fst it) (snd it)) its).

(* the failing part is not among the listed ones: all land in the slot t selects *)
Lemma bd_go_rest its sk failed lg : (forall j, failed = Some j -> Forall (fun it => fst it <> j) its) ->
  forall t, bd_go its sk failed lg t =
    match t with
    | 0 => (entries lg sk its, [], [])
    | 1 => ([], entries lg sk its, [])
    | _ => ([], [], entries lg sk its)
    end.
Proof.
  induction its as [|[i text] its IH]; intros HF t; [destruct t as [|[|t]]; reflexivity|].
  cbn [bd_go]. unfold entries. cbn [map concat fst snd]. fold (entries lg sk its).
  assert (HF' : forall j, failed = Some j -> Forall (fun it => fst it <> j) its)
    by (intros j E; exact (Forall_inv_tail (HF j E))).
  destruct (mem_nat i sk); [apply IH, HF'|].
  replace (match failed with Some j => Nat.eqb i j | None => false end) with false.
  - rewrite (IH HF' t). destruct t as [|[|t]]; reflexivity.
  - destruct failed as [j|]; [|reflexivity]. symmetry. apply Nat.eqb_neq. exact (Forall_inv (HF j eq_refl)).
Qed.

(* pre under "Passed Parts", the failing part alone under "Failed Part", post under "Remaining Parts"; skipped parts
   left out *)
Theorem breakdown_split pre j text post sk lg :
  Forall (fun it => fst it <> j) pre -> Forall (fun it => fst it <> j) post -> mem_nat j sk = false ->
  bd_go (pre ++ (j, text) :: post) sk (Some j) lg 0 = (entries lg sk pre, bd_entry lg j text, entries lg sk post).
Proof.
  intros Hpre Hpost Hj. induction pre as [|[i t] pre IH].
  - cbn [app bd_go]. rewrite Hj, Nat.eqb_refl. rewrite (bd_go_rest post sk (Some j) lg) by (intros ? [= <-]; exact Hpost). cbn. rewrite app_nil_r. reflexivity.
  - inversion Hpre as [|? ? Hi Hr]; subst. cbn [fst] in Hi. cbn [app bd_go]. unfold entries. cbn [map concat fst snd].
    destruct (mem_nat i sk); [cbn [app]; apply IH; exact Hr|].
    assert (E : Nat.eqb i j = false) by (apply Nat.eqb_neq; exact Hi). rewrite E.
    rewrite (IH Hr). reflexivity.
Qed.

(* the report enumerates the parts as combine (seq 0 _) texts *)
Lemma combine_seq_split {A} (l : list A) j x : nth_error l j = Some x -> forall n,
  combine (seq n (length l)) l = combine (seq n j) (firstn j l) ++ (n + j, x) :: combine (seq (n + S j) (length l - S j)) (skipn (S j) l).
Proof.
  revert j. induction l as [|y l IH]; intros j H n; [destruct j; discriminate|].
  destruct j as [|j].
  - cbn in H. inversion H; subst. cbn. rewrite Nat.add_0_r, Nat.sub_0_r. replace (n + 1) with (S n) by lia. reflexivity.
  - cbn in H. cbn [length seq combine firstn skipn app]. rewrite (IH j H (S n)).
    replace (S n + j) with (n + S j) by lia. replace (S n + S j) with (n + S (S j)) by lia. reflexivity.
Qed.

Lemma combine_seq_neq {A} (l : list A) : forall n k j, (j < n \/ n + k <= j) ->
  Forall (fun it : nat * A => fst it <> j) (combine (seq n k) l).
Proof.
  induction l as [|y l IH]; intros n k j H; [destruct k; constructor|].
  destruct k as [|k]; [constructor|]. cbn [seq combine]. constructor; [cbn; lia|]. apply IH. lia.
Qed.
