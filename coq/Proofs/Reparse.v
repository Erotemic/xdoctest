(* Reparse.v — C18, the re-parse clause: the text format_src displays for a parsed doctest (prompts and wants, no
   colours, no numbers) parses again to the same parts: reparse_displayed, reparse_prose_around, reparse_sections.
   For runs of well-formed examples (Spec/Labels.v), lines without tabs or line breaks (LineOK), one indentation per
   run, every run but the last ending with a want (WantEndsS), an ast oracle whose statement starts lie inside the
   source (AstInRange, which keeps every part non-empty). *)
From XD Require Import Model.Format Spec.Partition Spec.Labels Proofs.BaseFacts Proofs.ParserProofs
  Proofs.ChunkProofs Proofs.GroupLocal Proofs.LabelProofs Proofs.FormatProofs.

Definition on_snd (g : str -> str) (x : label * str) : label * str := (fst x, g (snd x)).
Definition on_grp (g : str -> str) (x : group) : group := (fst x, map (on_snd g) (snd x)).
Definition chunk_map (g : str -> str) (c : chunk) : chunk :=
  match c with TextChunk ls => TextChunk (map g ls) | CodeChunk s w => CodeChunk (map g s) (map g w) end.

(* regroup decides from labels only *)
Lemma regroup_map {X} (lab : X -> label) (body : X -> list (label * str)) opens g (f : X -> X) :
  (forall x, lab (f x) = lab x) -> (forall x, body (f x) = map (on_snd g) (body x)) ->
  forall xs left cur,
    regroup lab body opens left (map f xs) (option_map (on_grp g) cur) = map (on_grp g) (regroup lab body opens left xs cur).
Proof.
  intros HL HB. induction xs as [|mid rest IH]; intros left cur; cbn [map].
  - rewrite !regroup_nil. destruct cur as [[s [|b bs]]|]; reflexivity.
  - rewrite !regroup_cons, HL.
    replace (next_label lab (map f rest)) with (next_label lab rest) by (destruct rest; cbn [map next_label]; rewrite ?HL; reflexivity).
    destruct cur as [c|]; cbn [option_map].
    + destruct (opens left (lab mid) (next_label lab rest)); cbn [map]; rewrite <- IH; cbn [option_map]; unfold on_grp; cbn [fst snd].
      * rewrite HB. reflexivity.
      * rewrite map_app, HB. reflexivity.
    + rewrite <- IH. cbn [option_map]. unfold on_grp. cbn [fst snd]. rewrite HB. reflexivity.
Qed.

Lemma pass3_map g : forall groups prev,
  pass3 (map (on_grp g) groups) (option_map (map g) prev) = res_map (map (chunk_map g)) (pass3 groups prev).
Proof.
  induction groups as [|[state group] rest IH]; intros prev.
  - destruct prev as [[|p ps]|]; reflexivity.
  - cbn [map pass3 on_grp fst snd].
    replace (map snd (map (on_snd g) group)) with (map g (map snd group)) by (rewrite !map_map; reflexivity).
    (* pass 3 goes on with no pending source or with this group pending *)
    pose proof (IH None) as IHn. pose proof (IH (Some (map snd group))) as IHs. cbn [option_map] in IHn, IHs.
    destruct state; rewrite ?IHn, ?IHs; clear IHn IHs; destruct prev as [p|]; try reflexivity;
      destruct (pass3 rest _); reflexivity.
Qed.

Theorem group_lines_map g ll :
  group_lines (map (on_snd g) ll) = res_map (map (chunk_map g)) (group_lines ll).
Proof.
  rewrite !group_lines_groups. unfold groups1, groups2.
  pose proof (regroup_map fst one opens1 g (on_snd g) (fun _ => eq_refl) (fun _ => eq_refl) ll None None) as E1.
  pose proof (fun gs => regroup_map fst snd opens2 g (on_grp g) (fun _ => eq_refl) (fun _ => eq_refl) gs None None) as E2.
  cbn [option_map] in E1, E2. rewrite E1, E2. apply (pass3_map g _ None).
Qed.

Definition IndLine (ind : nat) (l : str) : Prop := exists c r, l = spaces ind ++ c :: r /\ is_space c = false.

Lemma package_chunk_dedent o ind src want n : Forall (IndLine ind) src ->
  package_chunk o (map (skipn ind) src) (map (skipn ind) want) n = package_chunk o src want n.
Proof.
  intros HI. destruct src as [|first rest]; [reflexivity|].
  assert (L : line_indent first = ind /\ line_indent (skipn ind first) = O).
  { inversion HI as [|? ? (c & r & -> & Hc) _]. rewrite skipn_spaces. split; [apply line_indent_spaces | apply (line_indent_spaces 0)]; exact Hc. }
  destruct L as [L1 L2]. cbn [map]. rewrite !package_chunk_cut. unfold dedent_chunk, dedent_want. rewrite L1, L2.
  change (skipn 0) with (fun l : str => l). rewrite !map_id. reflexivity.
Qed.

Lemma package_groups_dedent o ind : forall gs n, Forall (RunChunk (IndLine ind)) gs ->
  package_groups o (map (chunk_map (skipn ind)) gs) n = package_groups o gs n.
Proof.
  induction gs as [|c gs IH]; intros n H; [reflexivity|]. inversion H as [|? ? Hc Hr]; subst.
  destruct c as [ls|s w]; cbn [map chunk_map package_groups RunChunk] in *.
  - rewrite map_length, IH, Hc by exact Hr. reflexivity.
  - rewrite package_chunk_dedent, !map_length, IH by (exact Hr || apply Hc). reflexivity.
Qed.

(* e as format_src displays it *)
Definition ex0 (e : example) : example := mkEx 0 (ex_stmts e) (ex_want e).

Lemma last_stmt_label_ex0 e : last_stmt_label (ex0 e) = last_stmt_label e.
Proof. reflexivity. Qed.

Lemma ex_labels_ex0 e : ex_labels (ex0 e) = ex_labels e.
Proof. reflexivity. Qed.

(* what a chain asks of an example whatever stands in front of it *)
Definition ExOK (bal : list str -> res bool) (e : example) : Prop :=
  ex_stmts e <> [] /\ Forall (BalOK bal) (ex_stmts e) /\ Forall WantLine (ex_want e).

Lemma chain_exok bal : forall bs prev pind, Chain bal prev pind bs -> forall e, In (BEx e) bs -> ExOK bal e.
Proof.
  induction bs as [|b bs IH]; intros prev pind H e Hin; [contradiction|].
  inversion H as [|? ? ? ? Hok Hrest]; subst. destruct Hin as [->|Hin]; [|eapply IH; eassumption].
  destruct Hok as (A & B & C & _). repeat split; assumption.
Qed.

Lemma chain0_of_ok bal : forall exs prev, Forall (ExOK bal) exs -> Chain bal prev O (map BEx (map ex0 exs)).
Proof.
  induction exs as [|e exs IH]; intros prev H; [constructor|]. inversion H as [|? ? (A & B & C) Hr]; subst.
  cbn [map]. constructor.
  - exact (conj A (conj B (conj C (fun _ => eq_refl)))).
  - cbn [after_block ex0 ex_want ex_ind]. destruct (ex_want e); cbn [fst snd]; apply IH; exact Hr.
Qed.

Definition exs_lines (exs : list example) : list str := concat (map block_lines (map BEx exs)).

(* `intended` zips two concatenations; block by block it is a flat_map (intended_blocks) *)
Definition block_items (b : block) : list (label * str) := combine (block_labels b) (block_lines b).
Definition text_items (p : list str) : list (label * str) := map (pair TEXT) p.

Lemma intended_blocks bs : intended bs = flat_map block_items bs.
Proof.
  unfold intended. induction bs as [|b bs IH]; [reflexivity|]. cbn [map concat flat_map].
  rewrite combine_app, IH by apply block_labels_length. reflexivity.
Qed.

Lemma intended_app a b : intended (a ++ b) = intended a ++ intended b.
Proof. rewrite !intended_blocks. apply flat_map_app. Qed.

Lemma intended_lines bs : map snd (intended bs) = concat (map block_lines bs).
Proof.
  rewrite intended_blocks, flat_map_concat_map, concat_map, map_map. f_equal. apply map_ext. intros b.
  apply map_snd_combine, block_labels_length.
Qed.

Lemma intended_prose p : intended [BProse p] = text_items p.
Proof.
  unfold intended, text_items. cbn [map concat block_labels block_lines]. rewrite !app_nil_r.
  induction p as [|l p IH]; [reflexivity|]. cbn [map combine]. rewrite IH. reflexivity.
Qed.

Lemma ex_lines_dedent e : map (skipn (ex_ind e)) (ex_lines e) = ex_lines (ex0 e).
Proof.
  unfold ex_lines, stmt_lines, cline_text. cbn [ex0 ex_ind ex_stmts ex_want spaces repeat app].
  rewrite map_app, concat_map, !map_map. f_equal; [f_equal|]; apply map_ext.
  - intros s. cbn [map]. rewrite skipn_spaces, map_map. f_equal. apply map_ext. intros c. apply skipn_spaces.
  - intros w. apply skipn_spaces.
Qed.

Lemma map_on_snd_combine g : forall (a : list label) (b : list str),
  map (on_snd g) (combine a b) = combine a (map g b).
Proof. induction a as [|x a IH]; intros [|y b]; cbn; [reflexivity..|]. rewrite IH. reflexivity. Qed.

Lemma exs_dedent ind exs : Forall (fun e => ex_ind e = ind) exs ->
  intended (map BEx (map ex0 exs)) = map (on_snd (skipn ind)) (intended (map BEx exs)).
Proof.
  intros HI. rewrite !intended_blocks, !flat_map_concat_map, concat_map, !map_map. f_equal.
  apply map_ext_in. intros e He. rewrite Forall_forall in HI. rewrite <- (HI e He).
  unfold block_items. cbn [block_labels block_lines]. rewrite map_on_snd_combine, ex_lines_dedent. reflexivity.
Qed.

Lemma prompt_indline ind ps2 code : IndLine ind (spaces ind ++ prompt ps2 ++ code).
Proof. destruct ps2; eexists _, _; split; reflexivity. Qed.

Lemma ex_ind_lines bal e : ExOK bal e -> Forall (IndLine (ex_ind e)) (ex_lines e).
Proof.
  intros (_ & _ & HW). unfold ex_lines. apply Forall_app. split.
  - apply Forall_concat. rewrite Forall_map. apply Forall_forall. intros s _.
    constructor; [apply (prompt_indline _ false)|]. rewrite Forall_map. apply Forall_forall. intros c _. apply prompt_indline.
  - rewrite Forall_map. eapply Forall_impl; [|exact HW]. intros w ((c & r & -> & Hc) & _). exists c, r. split; [reflexivity | exact Hc].
Qed.

Lemma more_labels_notext : forall cs cur, cur <> TEXT -> Forall (fun l => l <> TEXT) (more_labels cur cs).
Proof.
  induction cs as [|c cs IH]; intros cur H; [constructor|]. cbn [more_labels].
  destruct (cl_ps2 c); constructor; try discriminate; try assumption; apply IH; try discriminate; assumption.
Qed.

Lemma ex_labels_notext e : Forall (fun l => l <> TEXT) (ex_labels e).
Proof.
  apply Forall_app. split.
  - apply Forall_concat. rewrite Forall_map. apply Forall_forall. intros s _.
    constructor; [discriminate|]. apply more_labels_notext. discriminate.
  - rewrite Forall_map. apply Forall_forall. intros w _. discriminate.
Qed.

Lemma Forall_combine {A B} (P : A -> Prop) (Q : B -> Prop) : forall a b, Forall P a -> Forall Q b ->
  Forall (fun x => P (fst x) /\ Q (snd x)) (combine a b).
Proof.
  induction a as [|x a IH]; intros [|y b] HA HB; cbn [combine]; try constructor.
  - inversion HA; inversion HB; subst. split; assumption.
  - inversion HA; inversion HB; subst. apply IH; assumption.
Qed.

Lemma exs_items bal ind exs : Forall (ExOK bal) exs -> Forall (fun e => ex_ind e = ind) exs ->
  Forall (fun x => fst x <> TEXT /\ IndLine ind (snd x)) (intended (map BEx exs)).
Proof.
  intros HK HI. rewrite intended_blocks, Forall_flat_map, Forall_map.
  eapply Forall_impl; [|exact (Forall_and HK HI)]. intros e [K <-].
  apply (Forall_combine (fun l => l <> TEXT) (IndLine (ex_ind e))); [apply ex_labels_notext | eapply ex_ind_lines, K].
Qed.

Lemma exs_head bal exs : exs <> [] -> Forall (ExOK bal) exs ->
  exists x X', intended (map BEx exs) = x :: X' /\ fst x = DSRC.
Proof.
  intros NE H. destruct exs as [|e exs]; [contradiction|]. inversion H as [|? ? (A & _) _]; subst.
  rewrite intended_blocks. cbn [map flat_map]. unfold block_items, block_labels, block_lines, ex_labels, ex_lines.
  destruct (ex_stmts e) as [|s ss]; [contradiction|]. eexists _, _. split; reflexivity.
Qed.

Lemma exs0_head bal exs : exs <> [] -> Forall (ExOK bal) exs ->
  exists x X', intended (map BEx (map ex0 exs)) = x :: X' /\ fst x = DSRC.
Proof.
  intros NE H. apply (exs_head bal); [|rewrite Forall_map; exact H]. intros E. apply NE. eapply map_eq_nil. exact E.
Qed.

Definition NoTab (l : str) : Prop := forall c, In c l -> (c =? TAB)%N = false.
Definition LineOK (l : str) : Prop := Clean l /\ NoTab l.

(* for lines given as literals *)
Lemma lines_ok_literal ls :
  forallb (forallb (fun c => negb (is_linebreak c || (c =? TAB)%N))) ls = true -> Forall LineOK ls.
Proof.
  rewrite forallb_forall, Forall_forall. intros H l Hl.
  split; intros c Hc; apply (forallb_negb _ l (H l Hl)) in Hc; apply orb_false_iff in Hc; apply Hc.
Qed.

Lemma join_nl_notab : forall ls, Forall NoTab ls -> NoTab (join_nl ls).
Proof.
  induction ls as [|l ls IH]; intros H c Hc; [contradiction|].
  inversion H as [|? ? Hl Hr]; subst. destruct ls as [|m r].
  - cbn in Hc. apply Hl. exact Hc.
  - rewrite join_nl_cons in Hc. apply in_app_or in Hc. destruct Hc as [Hc|[Hc|Hc]].
    + apply Hl. exact Hc.
    + subst c. reflexivity.
    + apply (IH Hr). exact Hc.
Qed.

(* no tabs and the first line in column 0: the minimal indentation is 0 *)
Lemma normalize_displayed l rest : IndLine 0 l -> Forall LineOK (l :: rest) ->
  normalize_docstring (join_nl (l :: rest)) = join_nl (l :: rest).
Proof.
  intros (c & r & -> & Hc) H. cbn [spaces repeat app] in *. unfold normalize_docstring, expandtabs.
  rewrite expandtabs_go_id by (apply join_nl_notab; eapply Forall_impl; [|exact H]; intros l [_ B]; exact B).
  unfold min_indentation. rewrite split_join.
  - cbn [map]. unfold indent_match at 1. cbn [drop_while take_while]. rewrite (not_space_not_sp c Hc), Hc.
    cbn [somes min_list length]. destruct (min_list _); reflexivity.
  - discriminate.
  - eapply Forall_impl; [|exact H]. intros l [A _]. apply Clean_NoNL. exact A.
Qed.

Definition parts_of (items : list item) : list part :=
  flat_map (fun it => match it with IPart p => [p] | IText _ => [] end) items.
Definition ShownOK (p : part) : Prop :=
  Forall (fun l => Clean l /\ l <> []) (orig_lines p) /\ Forall (fun l => Clean l /\ l <> []) (want_lines p).
(* the lines of a chunk as its parts hold them *)
Definition chunk_shown (c : chunk) : list str :=
  match c with TextChunk _ => [] | CodeChunk s w => dedent_chunk s ++ dedent_want s w end.

Theorem format_src_shown parts off lineno :
  Forall ShownOK parts -> Forall (fun p => orig_lines p <> []) parts ->
  format_src parts false true off true false lineno = join_nl (concat (map all_lines parts)).
Proof.
  intros HC HS. apply (format_src_text parts true true); [|exact HS].
  revert HC. apply Forall_impl. intros p [A C]. apply Forall_app. split; assumption.
Qed.

Lemma all_lines_wants : forall k ps w, map want_lines ps = repeat [] k ++ [w] ->
  concat (map all_lines ps) = concat (map orig_lines ps) ++ w.
Proof.
  induction k as [|k IH]; intros ps w H.
  - cbn [repeat app] in H. destruct ps as [|p [|q r]]; try discriminate. cbn [map] in H. inversion H as [E].
    cbn [map concat]. unfold all_lines. rewrite E, !app_nil_r. reflexivity.
  - cbn [repeat app] in H. destruct ps as [|p r]; [discriminate|]. cbn [map] in H. inversion H as [[E1 E2]].
    rewrite E1 in E2. cbn [map concat]. rewrite (IH r w E2). unfold all_lines at 1. rewrite E1, app_nil_r, app_assoc. reflexivity.
Qed.

Lemma parts_tile_all_lines n src want ps : PartsTile n src want ps -> concat (map all_lines ps) = src ++ want.
Proof.
  intros (bs & Hhd & Hasc & E1 & _ & _ & E4).
  rewrite (all_lines_wants _ _ _ E4), E1, tiles_concat by assumption. reflexivity.
Qed.

Lemma parts_of_app a b : parts_of (a ++ b) = parts_of a ++ parts_of b.
Proof. unfold parts_of. apply flat_map_app. Qed.
Lemma parts_of_parts ps : parts_of (map IPart ps) = ps.
Proof. induction ps as [|p ps IH]; [reflexivity|]. cbn. f_equal. exact IH. Qed.

(* also behind SourceRun.tiled_exec: f on the parts agrees with g on the chunks if it does on one tiled chunk *)
Lemma tiled_concat {A} (f : part -> list A) (g : chunk -> list A) :
  (forall ls, g (TextChunk ls) = []) ->
  (forall n s w ps, PartsTile n (dedent_chunk s) (dedent_want s w) ps -> concat (map f ps) = g (CodeChunk s w)) ->
  forall gs n items, Tiled n gs items -> concat (map f (parts_of items)) = concat (map g gs).
Proof.
  intros Ht Hc gs n items H. induction H as [n | n ls rest r H IH | n s w rest ps r HT H IH]; cbn [map concat].
  - reflexivity.
  - rewrite Ht. exact IH.
  - rewrite parts_of_app, parts_of_parts, map_app, concat_app, IH, (Hc _ _ _ _ HT). reflexivity.
Qed.

Theorem tiled_shown : forall gs n items, Tiled n gs items ->
  concat (map all_lines (parts_of items)) = concat (map chunk_shown gs).
Proof. apply tiled_concat; [reflexivity|]. intros n s w ps. apply parts_tile_all_lines. Qed.

Lemma package_groups_nonempty o : AstInRange o -> forall gs n items,
  package_groups o gs n = Ok items -> Forall (fun p => orig_lines p <> []) (parts_of items).
Proof.
  intros HR. rewrite package_groups_with.
  apply (package_with_ind _ o (fun _ _ items => Forall (fun p => orig_lines p <> []) (parts_of items)));
    [constructor | intros; assumption|].
  intros n s w rest ps r PC IH. rewrite parts_of_app, parts_of_parts. apply Forall_app.
  exact (conj (proj2 (package_chunk_layout o s w n ps HR PC)) IH).
Qed.

Lemma shown_dedent ind : forall gs, Forall (RunChunk (IndLine ind)) gs ->
  concat (map chunk_shown gs) = map (skipn ind) (flatten_chunks gs).
Proof.
  unfold flatten_chunks. induction gs as [|c gs IH]; intros H; [reflexivity|]. inversion H as [|? ? Hc Hr]; subst.
  cbn [map concat]. rewrite map_app, (IH Hr). f_equal. destruct c as [ls|s w]; cbn [RunChunk chunk_shown chunk_lines] in *.
  - rewrite Hc. reflexivity.
  - destruct Hc as [NE Hs]. destruct s as [|f m]; [contradiction|].
    assert (LI : line_indent f = ind) by (inversion Hs as [|? ? (c & t & -> & Hct) _]; apply line_indent_spaces; exact Hct).
    unfold dedent_chunk, dedent_want. rewrite LI, map_app. reflexivity.
Qed.

Local Open Scope nat_scope.
Definition shift (k : nat) (p : part) : part :=
  mkPart (exec_lines p) (want_lines p) (k + line_offset p) (orig_lines p) (p_directives p) (compile_mode p) (p_dirs_raise p).

Lemma slice_example_shift ea sa tab o k n s1 s2 want mode :
  slice_example ea sa tab o (k + n) s1 s2 want mode = res_map (shift k) (slice_example ea sa tab o n s1 s2 want mode).
Proof.
  unfold slice_example. rewrite <- Nat.add_assoc. destruct (lookup_nat s1 tab) as [ds|]; [reflexivity|].
  destruct (o_dirs o (slice_to s1 s2 ea)) as [ds|[]]; reflexivity.
Qed.

Lemma map_res_map {A B C} (h : B -> C) (f : A -> res C) (g : A -> res B) : (forall x, f x = res_map h (g x)) ->
  forall l, map_res f l = res_map (map h) (map_res g l).
Proof.
  intros H. induction l as [|x l IH]; [reflexivity|]. cbn [map_res]. rewrite H, IH.
  destruct (g x) as [y|e]; cbn [bind res_map]; [|reflexivity].
  destruct (map_res g l) as [ys|e]; cbn [bind res_map]; reflexivity.
Qed.

Lemma cut_shift ea sa tab o k n bs want mode :
  cut (slice_example ea sa tab o (k + n)) bs want mode = res_map (map (shift k)) (cut (slice_example ea sa tab o n) bs want mode).
Proof.
  unfold cut.
  rewrite (map_res_map (shift k) _ (fun ab => slice_example ea sa tab o n (fst ab) (Some (snd ab)) [] M_exec))
    by (intros x; apply slice_example_shift).
  destruct (map_res _ (consecutive_pairs bs)) as [ps|e]; cbn [bind res_map]; [|reflexivity].
  rewrite slice_example_shift. destruct (slice_example ea sa tab o n _ None want mode) as [p|e]; cbn [bind res_map]; [|reflexivity].
  rewrite map_app. reflexivity.
Qed.

Lemma package_chunk_shift o s w k n :
  package_chunk o s w (k + n) = res_map (map (shift k)) (package_chunk o s w n).
Proof.
  destruct s as [|first rest]; [reflexivity|]. rewrite !package_chunk_cut.
  destruct (locate_ps1 o _) as [loc|e]; [|reflexivity]. cbn [bind].
  destruct (ps1_directives o _ _) as [tb|e]; [|reflexivity]. cbn [bind].
  destruct (chunk_bounds _ _ _) as [bs|e]; [|reflexivity]. cbn [bind]. apply cut_shift.
Qed.

Definition shift_item (k : nat) (it : item) : item :=
  match it with IText t => IText t | IPart p => IPart (shift k p) end.

Lemma package_groups_shift o k : forall gs n,
  package_groups o gs (k + n) = res_map (map (shift_item k)) (package_groups o gs n).
Proof.
  induction gs as [|c gs IH]; intros n; [reflexivity|]. destruct c as [ls|s w]; cbn [package_groups].
  - rewrite <- Nat.add_assoc, IH. destruct (package_groups o gs (n + length ls)) as [r|e]; reflexivity.
  - rewrite package_chunk_shift. destruct (package_chunk o s w n) as [ps|e]; cbn [bind res_map]; [|reflexivity].
    rewrite <- !Nat.add_assoc, IH. rewrite !Nat.add_assoc.
    destruct (package_groups o gs (n + length s + length w)) as [r|e]; cbn [bind res_map]; [|reflexivity].
    rewrite map_app, !map_map. reflexivity.
Qed.

Lemma package_groups_app o : forall g1 g2 n,
  package_groups o (g1 ++ g2) n = both (package_groups o g1 n) (package_groups o g2 (n + length (flatten_chunks g1))).
Proof.
  induction g1 as [|c g1 IH]; intros g2 n.
  - cbn [app package_groups both]. unfold flatten_chunks. cbn. rewrite Nat.add_0_r.
    destruct (package_groups o g2 n); reflexivity.
  - destruct c as [ls|s w]; cbn [app package_groups].
    + rewrite IH. unfold flatten_chunks. cbn [map concat chunk_lines]. rewrite app_length, Nat.add_assoc.
      destruct (package_groups o g1 (n + length ls)) as [a|e]; cbn [bind both]; [|reflexivity].
      destruct (package_groups o g2 _) as [b|e]; reflexivity.
    + destruct (package_chunk o s w n) as [ps|e]; cbn [bind both]; [|reflexivity].
      rewrite IH. unfold flatten_chunks. cbn [map concat chunk_lines]. rewrite !app_length, !Nat.add_assoc.
      destruct (package_groups o g1 (n + length s + length w)) as [a|e]; cbn [bind both]; [|reflexivity].
      destruct (package_groups o g2 _) as [b|e]; cbn [bind both]; [|reflexivity].
      rewrite app_assoc. reflexivity.
Qed.

Lemma parts_of_shift k its : parts_of (map (shift_item k) its) = map (shift k) (parts_of its).
Proof.
  unfold parts_of. induction its as [|[t|p] its IH]; cbn [map flat_map shift_item app]; rewrite ?IH; reflexivity.
Qed.

(* parts up to the line they start on *)
Definition unoffset (p : part) : part :=
  mkPart (exec_lines p) (want_lines p) O (orig_lines p) (p_directives p) (compile_mode p) (p_dirs_raise p).
Definition UP (its : list item) : list part := map unoffset (parts_of its).

Lemma UP_shift k its : UP (map (shift_item k) its) = UP its.
Proof. unfold UP. rewrite parts_of_shift, map_map. apply map_ext. reflexivity. Qed.

Lemma UP_app a b : UP (a ++ b) = UP a ++ UP b.
Proof. unfold UP. rewrite parts_of_app, map_app. reflexivity. Qed.

Lemma all_lines_unoffset p : all_lines (unoffset p) = all_lines p.
Proof. reflexivity. Qed.

Lemma forall_of_unoffset (P : part -> Prop) (l : list part) :
  (forall p, P (unoffset p) -> P p) -> Forall P (map unoffset l) -> Forall P l.
Proof. intros H F. rewrite Forall_map in F. eapply Forall_impl; [|exact F]. exact H. Qed.

Lemma forall_to_unoffset (P : part -> Prop) (l : list part) :
  (forall p, P p -> P (unoffset p)) -> Forall P l -> Forall P (map unoffset l).
Proof. intros H F. rewrite Forall_map. eapply Forall_impl; [|exact F]. exact H. Qed.

(* without line numbers the display does not look at the offsets *)
Lemma format_src_unoffset ps want off prefix lineno :
  format_src (map unoffset ps) false want off prefix false lineno = format_src ps false want off prefix false lineno.
Proof. rewrite !format_src_unnumbered, map_map. reflexivity. Qed.

(* The items when grouping and packaging (from line n on) both succeed.  The error is forgotten on purpose: `both`
   reports the left piece's error first, so over `res` pki_cut is false when the left piece fails in packaging and the
   right one in grouping. *)
Definition pki (o : oracles) (n : nat) (ll : list (label * str)) : option (list item) :=
  match group_lines ll with
  | Ok gs => match package_groups o gs n with Ok its => Some its | Err _ => None end
  | Err _ => None
  end.

Lemma pki_parse o s ll items : label_lines (o_bal o) (normalize_docstring s) = Ok ll ->
  pki o 0 ll = Some items -> parse o s = Parsed items.
Proof.
  intros L. unfold parse, pki. rewrite L. destruct (group_lines ll) as [gs|]; [|discriminate].
  destruct (package_groups o gs 0) as [its|]; [|discriminate]. intros [= ->]. reflexivity.
Qed.

Lemma parsed_intended o bs s items : Chain (o_bal o) TEXT O bs ->
  srclines (normalize_docstring s) = concat (map block_lines bs) -> parse o s = Parsed items ->
  pki o 0 (intended bs) = Some items.
Proof.
  intros HC HL HP. apply parse_parsed in HP. destruct HP as (ll & gs & L & G & P).
  rewrite (labels_as_intended _ bs _ HL HC) in L. injection L as <-. unfold pki. rewrite G, P. reflexivity.
Qed.

Lemma pki_shift o k n ll : pki o (k + n) ll = option_map (map (shift_item k)) (pki o n ll).
Proof.
  unfold pki. destruct (group_lines ll) as [gs|]; [|reflexivity].
  rewrite package_groups_shift. destruct (package_groups o gs n); reflexivity.
Qed.

Lemma pki_UP o n m ll : option_map UP (pki o n ll) = option_map UP (pki o m ll).
Proof.
  rewrite <- (Nat.add_0_r n), <- (Nat.add_0_r m), !pki_shift.
  destruct (pki o 0 ll); cbn [option_map]; rewrite ?UP_shift; reflexivity.
Qed.

Lemma pki_run o n ind exs : Forall (ExOK (o_bal o)) exs -> Forall (fun e => ex_ind e = ind) exs ->
  pki o n (intended (map BEx (map ex0 exs))) = pki o n (intended (map BEx exs)).
Proof.
  intros HK HI. unfold pki. rewrite (exs_dedent ind exs HI), group_lines_map.
  destruct (group_lines (intended (map BEx exs))) as [gx|e] eqn:G; [|reflexivity]. cbn [res_map].
  rewrite (package_groups_dedent o ind); [reflexivity|]. eapply group_lines_run; [exact G|]. eapply exs_items; eassumption.
Qed.

Definition prose_items (p : list str) : list item := match p with [] => [] | _ => [IText (join_nl p)] end.

Lemma group_lines_nil : group_lines [] = Ok [].
Proof. reflexivity. Qed.

Lemma pki_text o n p : pki o n (text_items p) = Some (prose_items p).
Proof.
  unfold pki. destruct p as [|l p]; [reflexivity|]. change (text_items (l :: p)) with ((TEXT, l) :: text_items p).
  rewrite group_lines_text.
  - unfold text_items. cbn [package_groups bind map snd]. rewrite map_map, map_id. reflexivity.
  - apply (Forall_map (pair TEXT) (fun x => class_of (fst x) = KText) (l :: p)), Forall_forall. reflexivity.
Qed.

Lemma parts_of_prose p : parts_of (prose_items p) = [].
Proof. destruct p; reflexivity. Qed.

Definition oapp {A} (a b : option (list A)) : option (list A) :=
  match a, b with Some x, Some y => Some (x ++ y) | _, _ => None end.

Lemma oapp_nil_l {A} (r : option (list A)) : oapp (Some []) r = r.
Proof. destruct r; reflexivity. Qed.

Lemma pki_cut o n A B : Cut A B -> pki o n (A ++ B) = oapp (pki o n A) (pki o (n + length A) B).
Proof.
  intros HC. unfold pki. rewrite (group_lines_cut A B HC).
  destruct (group_lines A) as [ga|e] eqn:GA; [|reflexivity]. destruct (group_lines B) as [gb|e]; cbn [both].
  - rewrite package_groups_app, (group_lines_partition _ _ GA), map_length.
    destruct (package_groups o ga n), (package_groups o gb _); reflexivity.
  - destruct (package_groups o ga n); reflexivity.
Qed.

Lemma Cut_classes A (b : label * str) B :
  fst b <> WANT -> Forall (fun a => class_of (fst a) <> class_of (fst b)) A -> Cut A (b :: B).
Proof.
  intros HW HA. destruct A as [|a A']; [exact I|]. split; [exact HW|]. intros d.
  rewrite Forall_forall in HA. apply HA, last_in_ne. discriminate.
Qed.

Lemma Cut_prose_run bal p exs R : exs <> [] -> Forall (ExOK bal) exs -> Cut (text_items p) (intended (map BEx exs) ++ R).
Proof.
  intros NE HK. destruct (exs_head _ _ NE HK) as (x & X' & -> & Hx). apply Cut_classes; rewrite Hx; [discriminate|].
  unfold text_items. rewrite Forall_map. apply Forall_forall. discriminate.
Qed.

Lemma Cut_run_prose bal ind exs p : Forall (ExOK bal) exs -> Forall (fun e => ex_ind e = ind) exs ->
  Cut (intended (map BEx exs)) (text_items p).
Proof.
  intros HK HI. destruct p as [|l p]; [exact I|]. apply Cut_classes; [discriminate|].
  eapply Forall_impl; [|exact (exs_items _ _ _ HK HI)]. intros y [Hy _]. destruct (fst y); (discriminate || contradiction).
Qed.

Lemma Cut_want A B : (forall d, fst (last A d) = WANT) ->
  match B with [] => True | b :: _ => fst b = TEXT \/ fst b = DSRC end -> Cut A B.
Proof.
  intros HA HB. destruct B as [|b B']; [exact I|]. destruct A as [|a A']; [exact I|].
  split; [|intros d; rewrite HA]; destruct HB as [-> | ->]; discriminate.
Qed.

Lemma shown_ok_all ps : Forall (fun l => Clean l /\ l <> []) (concat (map all_lines ps)) -> Forall ShownOK ps.
Proof.
  intros H. apply Forall_concat in H. rewrite Forall_map in H. eapply Forall_impl; [|exact H].
  intros p Hp. apply Forall_app in Hp. exact Hp.
Qed.

(* A run at indentation 0 with clean lines is a fixed point: its text parses to the items of its labelled lines, and
   displaying parts that are those items' parts up to offsets gives the text back. *)
Lemma displayed_fixed o exs items ps off lineno :
  AstInRange o -> exs <> [] -> Forall (ExOK (o_bal o)) exs -> Forall LineOK (exs_lines (map ex0 exs)) ->
  pki o 0 (intended (map BEx (map ex0 exs))) = Some items -> map unoffset ps = UP items ->
  format_src ps false true off true false lineno = join_nl (exs_lines (map ex0 exs)) /\
  parse o (format_src ps false true off true false lineno) = Parsed items.
Proof.
  intros HR NE HK HOK HP EU.
  assert (HK0 : Forall (ExOK (o_bal o)) (map ex0 exs)) by (rewrite Forall_map; exact HK).
  assert (HX : Forall (fun x => fst x <> TEXT /\ IndLine 0 (snd x)) (intended (map BEx (map ex0 exs)))).
  { eapply exs_items; [exact HK0|]. rewrite Forall_map. apply Forall_forall. reflexivity. }
  assert (ES : map snd (intended (map BEx (map ex0 exs))) = exs_lines (map ex0 exs)) by apply intended_lines.
  assert (HL : Forall (fun l => Clean l /\ l <> []) (exs_lines (map ex0 exs))).
  { rewrite <- ES in HOK |- *. rewrite Forall_map in HOK |- *. eapply Forall_impl; [|exact (Forall_and HOK HX)].
    intros x [[C _] [_ (c & r & E & _)]]. split; [exact C | rewrite E; discriminate]. }
  assert (D : format_src ps false true off true false lineno = join_nl (exs_lines (map ex0 exs))).
  { rewrite <- format_src_unoffset, EU. unfold UP. rewrite format_src_unoffset. unfold pki in HP.
    destruct (group_lines _) as [gs|] eqn:G; [|discriminate]. destruct (package_groups o gs 0) as [its|] eqn:P; [|discriminate].
    injection HP as ->.
    assert (AL : concat (map all_lines (parts_of items)) = exs_lines (map ex0 exs)).
    { rewrite (tiled_shown gs 0 items (package_groups_tiled o gs 0 items P)), (shown_dedent 0).
      - change (skipn 0) with (fun l : str => l). rewrite map_id, (group_lines_partition _ _ G). exact ES.
      - eapply group_lines_run; [exact G | exact HX]. }
    rewrite format_src_shown, AL; [reflexivity | apply shown_ok_all; rewrite AL; exact HL | eapply package_groups_nonempty; eassumption]. }
  split; [exact D|]. rewrite D.
  apply (pki_parse o _ (intended (map BEx (map ex0 exs)))); [|exact HP].
  destruct (exs0_head _ _ NE HK) as (x & X' & EX & _).
  rewrite EX in HX, ES. cbn [map] in ES. inversion HX as [|? ? [_ Hx] _]; subst.
  unfold label_lines. rewrite <- ES in HOK, HL |- *.
  rewrite normalize_displayed by assumption. rewrite srclines_join by exact HL. rewrite ES.
  apply labels_as_intended_from. apply chain0_of_ok. exact HK.
Qed.

(* one run, no prose: the same items, offsets included *)
Theorem reparse_displayed o ind exs s items off lineno :
  AstInRange o ->
  exs <> [] ->
  Forall (fun e => ex_ind e = ind) exs ->
  Chain (o_bal o) TEXT O (map BEx exs) ->
  srclines (normalize_docstring s) = exs_lines exs ->
  Forall LineOK (exs_lines (map ex0 exs)) ->
  parse o s = Parsed items ->
  format_src (parts_of items) false true off true false lineno = join_nl (exs_lines (map ex0 exs)) /\
  parse o (format_src (parts_of items) false true off true false lineno) = Parsed items.
Proof.
  intros HR NE HI HC HL HOK HP.
  assert (HK : Forall (ExOK (o_bal o)) exs).
  { apply Forall_forall. intros e He. eapply chain_exok; [exact HC | apply in_map; exact He]. }
  apply (parsed_intended o _ s items HC HL) in HP. rewrite <- (pki_run o 0 ind exs HK HI) in HP.
  exact (displayed_fixed o exs items _ off lineno HR NE HK HOK HP eq_refl).
Qed.

(* under demo_oracle an example of one-line statements with "w" wants may follow any state its indentation fits *)
Lemma demo_ex_ok prev pind ind codes k : codes <> [] -> (is_src prev = true -> ind = pind) ->
  ok_after (o_bal demo_oracle) prev pind (BEx (mkEx ind (map (fun c => mkStmtB c []) codes) (repeat [119%N] k))).
Proof.
  intros NE HI. cbn [ok_after ex_stmts ex_want ex_ind]. split; [destruct codes; [contradiction | discriminate]|].
  split; [|split; [|exact HI]].
  - rewrite Forall_map. apply Forall_forall. intros c _. split; [intros j Hj; cbn in Hj; lia | reflexivity].
  - apply Forall_forall. intros w Hw. apply repeat_spec in Hw. subst w.
    split; [eexists _, _; split; reflexivity | repeat split; reflexivity].
Qed.

(* the hypotheses are satisfiable: ">>> a" / ">>> b" / "w" *)
Definition demo_exs : list example := [mkEx 0 [mkStmtB [97%N] []; mkStmtB [98%N] []] [[119%N]]].
Definition demo_doc : str := [62;62;62;32;97;10;62;62;62;32;98;10;119]%N.

Example demo_reparse_hyps :
  AstInRange demo_oracle /\ demo_exs <> [] /\ Forall (fun e => ex_ind e = 0) demo_exs /\
  Chain (o_bal demo_oracle) TEXT 0 (map BEx demo_exs) /\
  srclines (normalize_docstring demo_doc) = exs_lines demo_exs /\
  Forall LineOK (exs_lines (map ex0 demo_exs)) /\
  exists items, parse demo_oracle demo_doc = Parsed items /\ length (parts_of items) = 2.
Proof.
  split; [exact demo_oracle_in_range|]. split; [discriminate|]. split; [repeat constructor|].
  split.
  { apply Chain_cons; [|apply Chain_nil]. apply (demo_ex_ok TEXT 0 0 [[97%N]; [98%N]] 1); discriminate. }
  split; [reflexivity|]. split.
  { apply lines_ok_literal. reflexivity. }
  eexists. split; [vm_compute; reflexivity | reflexivity].
Qed.

(* prose around one run: the same parts, offsets counted from the first displayed line *)
Theorem reparse_prose_around o ind exs p0 p1 s items off lineno :
  AstInRange o -> exs <> [] -> Forall (fun e => ex_ind e = ind) exs ->
  Chain (o_bal o) TEXT O (BProse p0 :: map BEx exs ++ [BProse p1]) ->
  srclines (normalize_docstring s) = concat (map block_lines (BProse p0 :: map BEx exs ++ [BProse p1])) ->
  Forall LineOK (exs_lines (map ex0 exs)) ->
  parse o s = Parsed items ->
  format_src (parts_of items) false true off true false lineno = join_nl (exs_lines (map ex0 exs)) /\
  exists items', parse o (format_src (parts_of items) false true off true false lineno) = Parsed items' /\
                 parts_of items = map (shift (length p0)) (parts_of items').
Proof.
  intros HR NE HI HC HL HOK HP.
  assert (HK : Forall (ExOK (o_bal o)) exs).
  { apply Forall_forall. intros e He. eapply chain_exok; [exact HC|]. right. apply in_or_app. left. apply in_map. exact He. }
  apply (parsed_intended o _ s items HC HL) in HP.
  change (BProse p0 :: map BEx exs ++ [BProse p1]) with ([BProse p0] ++ map BEx exs ++ [BProse p1]) in HP.
  rewrite !intended_app, !intended_prose in HP.
  (* prose, run, prose: cut twice; the run starts on line length p0 *)
  rewrite pki_cut in HP by (eapply Cut_prose_run; eassumption).
  rewrite pki_cut in HP by (eapply Cut_run_prose; eassumption).
  rewrite !pki_text in HP. unfold text_items in HP. rewrite map_length in HP. cbn [Nat.add] in HP.
  rewrite <- (Nat.add_0_r (length p0)), pki_shift, <- (pki_run o 0 ind exs HK HI) in HP.
  destruct (pki o 0 (intended (map BEx (map ex0 exs)))) as [its0|] eqn:P0; [|discriminate]. injection HP as <-.
  assert (PS : parts_of (prose_items p0 ++ map (shift_item (length p0)) its0 ++ prose_items p1) = map (shift (length p0)) (parts_of its0)).
  { rewrite !parts_of_app, !parts_of_prose, app_nil_r, parts_of_shift. reflexivity. }
  destruct (displayed_fixed o exs its0 _ off lineno HR NE HK HOK P0 (eq_trans (f_equal (map unoffset) PS) (map_map _ _ _))) as [D A].
  split; [exact D|]. exists its0. split; [exact A | exact PS].
Qed.

(* the hypotheses are satisfiable: "Summary." / "" / "    >>> a" / "    >>> b" / "    w" / "" / "More." *)
Definition demo_p0 : list str := [[83;117;109;109;97;114;121;46]; []]%N.
Definition demo_p1 : list str := [[]; [77;111;114;101;46]]%N.
Definition demo_exs4 : list example := [mkEx 4 [mkStmtB [97%N] []; mkStmtB [98%N] []] [[119%N]]].
Definition demo_doc2 : str :=
  ([83;117;109;109;97;114;121;46;10;10] ++ [32;32;32;32;62;62;62;32;97;10] ++ [32;32;32;32;62;62;62;32;98;10] ++
   [32;32;32;32;119;10;10] ++ [77;111;114;101;46])%N.

Example demo_prose_around_hyps :
  demo_exs4 <> [] /\ Forall (fun e => ex_ind e = 4) demo_exs4 /\
  Chain (o_bal demo_oracle) TEXT 0 (BProse demo_p0 :: map BEx demo_exs4 ++ [BProse demo_p1]) /\
  srclines (normalize_docstring demo_doc2) = concat (map block_lines (BProse demo_p0 :: map BEx demo_exs4 ++ [BProse demo_p1])) /\
  Forall LineOK (exs_lines (map ex0 demo_exs4)) /\
  exists items, parse demo_oracle demo_doc2 = Parsed items /\ map line_offset (parts_of items) = [2; 3].
Proof.
  split; [discriminate|]. split; [repeat constructor|]. split.
  { apply Chain_cons.
    { split; [repeat constructor | intros H; contradiction H; reflexivity]. }
    apply Chain_cons. { apply (demo_ex_ok TEXT 0 4 [[97%N]; [98%N]] 1); discriminate. }
    apply Chain_cons; [|apply Chain_nil].
    split; [repeat constructor | intros _; reflexivity]. }
  split; [reflexivity|]. split.
  { apply lines_ok_literal. reflexivity. }
  eexists. split; [vm_compute; reflexivity | reflexivity].
Qed.

(* a docstring is sections (prose, then a run at s_ind) followed by prose *)
Record section := mkSec { s_prose : list str; s_exs : list example; s_ind : nat }.
Definition sec_blocks (sec : section) : list block := BProse (s_prose sec) :: map BEx (s_exs sec).
Definition doc_blocks (secs : list section) (pend : list str) : list block :=
  concat (map sec_blocks secs) ++ [BProse pend].
Definition all_exs (secs : list section) : list example := concat (map s_exs secs).

Definition LastHasWant (exs : list example) : Prop := exists pre e, exs = pre ++ [e] /\ ex_want e <> [].

Lemma exs_last exs : LastHasWant exs -> forall d, fst (last (intended (map BEx exs)) d) = WANT.
Proof.
  intros (pre & e & -> & NW) d. destruct (exists_last NW) as (ws & w & EW).
  rewrite intended_blocks, map_app, flat_map_app. generalize (flat_map block_items (map BEx pre)). intros A.
  cbn [map flat_map]. unfold block_items, block_labels, block_lines, ex_labels, ex_lines. rewrite EW, !map_app, !app_assoc.
  rewrite combine_app by (rewrite !app_length, !map_length, (stmts_labels_length (ex_ind e)); reflexivity).
  cbn [map combine]. rewrite app_nil_r, app_assoc, last_last. reflexivity.
Qed.

Lemma last_has_want0 exs : LastHasWant exs -> LastHasWant (map ex0 exs).
Proof. intros (pre & e & -> & NW). exists (map ex0 pre), (ex0 e). split; [rewrite map_app; reflexivity | exact NW]. Qed.

(* the display leaves the prose out, which would merge two want-less chunks: a section followed by another must end
   with a want *)
Fixpoint WantEndsS (secs : list section) : Prop :=
  match secs with
  | [] => True
  | [_] => True
  | sec :: rest => LastHasWant (s_exs sec) /\ WantEndsS rest
  end.

Lemma intended_doc_nil pend : intended (doc_blocks [] pend) = text_items pend.
Proof. apply intended_prose. Qed.

Lemma intended_doc_cons sec rest pend : intended (doc_blocks (sec :: rest) pend) =
  text_items (s_prose sec) ++ intended (map BEx (s_exs sec)) ++ intended (doc_blocks rest pend).
Proof.
  unfold doc_blocks. cbn [map concat]. unfold sec_blocks at 1.
  change (BProse ?p :: ?l) with ([BProse p] ++ l). rewrite <- !app_assoc, !intended_app, intended_prose. reflexivity.
Qed.

Lemma all_exs_cons sec rest : all_exs (sec :: rest) = s_exs sec ++ all_exs rest.
Proof. reflexivity. Qed.

Lemma all_exs0_cons sec rest : intended (map BEx (map ex0 (all_exs (sec :: rest)))) =
  intended (map BEx (map ex0 (s_exs sec))) ++ intended (map BEx (map ex0 (all_exs rest))).
Proof. rewrite all_exs_cons, !map_app. apply intended_app. Qed.

Lemma oapp_UP a b : option_map UP (oapp a b) = oapp (option_map UP a) (option_map UP b).
Proof. destruct a, b; cbn; rewrite ?UP_app; reflexivity. Qed.

(* n and m are free because UP forgets the offsets (pki_UP); the induction uses that *)
Lemma sections_UP o : forall secs pend n m,
  Forall (fun sec => s_exs sec <> [] /\ Forall (fun e => ex_ind e = s_ind sec) (s_exs sec)) secs ->
  Forall (ExOK (o_bal o)) (all_exs secs) -> WantEndsS secs ->
  option_map UP (pki o n (intended (doc_blocks secs pend))) =
  option_map UP (pki o m (intended (map BEx (map ex0 (all_exs secs))))).
Proof.
  induction secs as [|sec rest IH]; intros pend n m HU HK HW.
  - rewrite intended_doc_nil, pki_text. destruct pend; reflexivity.
  - inversion HU as [|? ? [NE HI] HUr]; subst. rewrite all_exs_cons in HK. apply Forall_app in HK. destruct HK as [HKs HKr].
    assert (HW' : WantEndsS rest) by (destruct rest; [exact I | exact (proj2 HW)]).
    rewrite intended_doc_cons, all_exs0_cons.
    (* cut after the prose, and after the run on either side *)
    rewrite pki_cut by (eapply Cut_prose_run; eassumption).
    assert (C : Cut (intended (map BEx (s_exs sec))) (intended (doc_blocks rest pend)) /\
                Cut (intended (map BEx (map ex0 (s_exs sec)))) (intended (map BEx (map ex0 (all_exs rest))))).
    { destruct rest as [|sec2 rest'].
      - split; [|exact I]. rewrite intended_doc_nil. eapply Cut_run_prose; eassumption.
      - destruct HW as [HL _]. inversion HUr as [|? ? [NE2 _] _]; subst.
        rewrite all_exs_cons in HKr. apply Forall_app in HKr. destruct HKr as [HK2 _].
        destruct (exs_head _ _ NE2 HK2) as (y & Y' & EY & Hy). destruct (exs0_head _ _ NE2 HK2) as (y0 & Y0' & EY0 & Hy0).
        split; (apply Cut_want; [apply exs_last; try apply last_has_want0; exact HL|]).
        + rewrite intended_doc_cons, EY. destruct (s_prose sec2); [right; exact Hy | left; reflexivity].
        + rewrite all_exs0_cons, EY0. right. exact Hy0. }
    rewrite !pki_cut by apply C.
    rewrite pki_text, !oapp_UP, (IH pend _ (m + length (intended (map BEx (map ex0 (s_exs sec))))) HUr HKr HW').
    rewrite (pki_UP o _ m (intended (map BEx (s_exs sec)))), <- (pki_run o m (s_ind sec) (s_exs sec) HKs HI).
    unfold UP at 1. cbn [option_map]. rewrite parts_of_prose. apply oapp_nil_l.
Qed.

(* prose anywhere (under WantEndsS): the same parts up to the lines they start on *)
Theorem reparse_sections o secs pend s items off lineno :
  AstInRange o -> secs <> [] ->
  Forall (fun sec => s_exs sec <> [] /\ Forall (fun e => ex_ind e = s_ind sec) (s_exs sec)) secs ->
  WantEndsS secs ->
  Chain (o_bal o) TEXT O (doc_blocks secs pend) ->
  srclines (normalize_docstring s) = concat (map block_lines (doc_blocks secs pend)) ->
  Forall LineOK (exs_lines (map ex0 (all_exs secs))) ->
  parse o s = Parsed items ->
  format_src (parts_of items) false true off true false lineno = join_nl (exs_lines (map ex0 (all_exs secs))) /\
  exists items', parse o (format_src (parts_of items) false true off true false lineno) = Parsed items' /\
                 map unoffset (parts_of items) = map unoffset (parts_of items').
Proof.
  intros HR NE HU HWS HC HL HOK HP.
  assert (HK : Forall (ExOK (o_bal o)) (all_exs secs)).
  { apply Forall_forall. intros e He. eapply chain_exok; [exact HC|]. apply in_concat in He. destruct He as (l & Hl & He).
    apply in_map_iff in Hl. destruct Hl as (sec & <- & Hs). apply in_or_app. left. apply in_concat.
    exists (sec_blocks sec). split; [apply in_map; exact Hs | right; apply in_map; exact He]. }
  apply (parsed_intended o _ s items HC HL) in HP.
  pose proof (sections_UP o secs pend 0 0 HU HK HWS) as E. rewrite HP in E.
  destruct (pki o 0 (intended (map BEx (map ex0 (all_exs secs))))) as [its0|] eqn:P0; [|discriminate]. injection E as E.
  assert (NEA : all_exs secs <> []).
  { destruct secs as [|sec r]; [contradiction|]. inversion HU as [|? ? [Hne _] _]; subst. rewrite all_exs_cons.
    destruct (s_exs sec); [contradiction | discriminate]. }
  destruct (displayed_fixed o (all_exs secs) its0 (parts_of items) off lineno HR NEA HK HOK P0 E) as [D A].
  split; [exact D|]. exists its0. split; [exact A | exact E].
Qed.

(* the hypotheses are satisfiable:
   "Summary." "" "    >>> a" "    w" "" "More:" "" "    >>> b" "" "End." *)
Definition demo_secs : list section :=
  [mkSec [[83;117;109;109;97;114;121;46]; []]%N [mkEx 4 [mkStmtB [97%N] []] [[119%N]]] 4;
   mkSec [[]; [77;111;114;101;58]; []]%N [mkEx 4 [mkStmtB [98%N] []] []] 4].
Definition demo_pend : list str := [[]; [69;110;100;46]]%N.
Definition demo_doc3 : str :=
  ([83;117;109;109;97;114;121;46;10;10] ++ [32;32;32;32;62;62;62;32;97;10] ++ [32;32;32;32;119;10;10] ++
   [77;111;114;101;58;10;10] ++ [32;32;32;32;62;62;62;32;98;10;10] ++ [69;110;100;46])%N.

Example demo_sections_hyps :
  demo_secs <> [] /\
  Forall (fun sec => s_exs sec <> [] /\ Forall (fun e => ex_ind e = s_ind sec) (s_exs sec)) demo_secs /\
  WantEndsS demo_secs /\
  Chain (o_bal demo_oracle) TEXT 0 (doc_blocks demo_secs demo_pend) /\
  srclines (normalize_docstring demo_doc3) = concat (map block_lines (doc_blocks demo_secs demo_pend)) /\
  Forall LineOK (exs_lines (map ex0 (all_exs demo_secs))) /\
  exists items, parse demo_oracle demo_doc3 = Parsed items /\ map line_offset (parts_of items) = [2; 7].
Proof.
  split; [discriminate|]. split; [repeat constructor; discriminate|]. split.
  { split; [|exact I]. exists [], (mkEx 4 [mkStmtB [97%N] []] [[119%N]]). split; [reflexivity | discriminate]. }
  split.
  { unfold doc_blocks, demo_secs, sec_blocks. cbn [map concat app s_prose s_exs].
    apply Chain_cons. { split; [repeat constructor | intros H; contradiction H; reflexivity]. }
    apply Chain_cons. { apply (demo_ex_ok TEXT 0 4 [[97%N]] 1); discriminate. }
    apply Chain_cons. { split; [repeat constructor | intros _; reflexivity]. }
    apply Chain_cons. { apply (demo_ex_ok TEXT 0 4 [[98%N]] 0); discriminate. }
    apply Chain_cons; [|apply Chain_nil]. split; [repeat constructor | intros _; reflexivity]. }
  split; [reflexivity|]. split.
  { apply lines_ok_literal. reflexivity. }
  eexists. split; [vm_compute; reflexivity | reflexivity].
Qed.
