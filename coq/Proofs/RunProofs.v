(* RunProofs.v — the run loop as a whole, for every outcome and REQUIRES oracle: invariant Going, run_cases, and what
   is read off it. *)
From XD Require Import Model.RunLoop Proofs.RunDecide.
Open Scope N_scope.

(* the positions 0 .. k-1 dealt, in order, into two lists *)
Inductive Dealt : nat -> list nat -> list nat -> Prop :=
| dealt_0 : Dealt 0 [] []
| dealt_l k a b : Dealt k a b -> Dealt (S k) (a ++ [k]) b
| dealt_r k a b : Dealt k a b -> Dealt (S k) a (b ++ [k]).

Lemma dealt_in k a b : Dealt k a b -> forall j, In j a \/ In j b <-> (j < k)%nat.
Proof.
  induction 1 as [|k a b _ IH|k a b _ IH]; intros j; [cbn; lia| |];
    rewrite in_app_iff, Nat.lt_succ_r, Nat.le_lteq, <- IH, (Nat.eq_sym_iff j k); cbn [In]; tauto.
Qed.

Lemma dealt_length k a b : Dealt k a b -> (length a + length b = k)%nat.
Proof. induction 1; rewrite ?app_length; cbn; lia. Qed.

Section Run.
Variable requires_met : str -> res bool.
Variable cfg : config.
Variable oc : nat -> outcome.

Notation step' := (step requires_met cfg oc).
Notation run_parts' := (run_parts requires_met cfg oc).

Definition running (s : rstate) : Prop := r_end s = E_running.

Lemma fail_at_fields s j f :
  r_skipped (fail_at cfg s j f) = r_skipped s /\ r_executed (fail_at cfg s j f) = r_executed s /\
  r_failed (fail_at cfg s j f) = Some (j, f) /\ r_end (fail_at cfg s j f) <> E_running /\
  r_checked (fail_at cfg s j f) = r_checked s /\ r_logged (fail_at cfg s j f) = r_logged s.
Proof. repeat split. apply fail_end_stops. Qed.

Lemma run_parts_frozen ps : forall s i, r_end s <> E_running -> run_parts' s i ps = s.
Proof.
  induction ps as [|p ps IH]; intros s i H; simpl; [reflexivity|].
  rewrite step_frozen by exact H. apply IH. exact H.
Qed.

(* invariant while the loop runs; k parts visited *)
Record Going (s : rstate) (k : nat) : Prop := mkGoing {
  go_running : r_end s = E_running;
  go_nofail : r_failed s = None;
  go_dealt : Dealt k (r_skipped s) (r_executed s);
  go_logged : map fst (r_logged s) = r_executed s
}.

Lemma going_init : Going (init_state cfg) 0.
Proof. repeat constructor. Qed.

Lemma going_step s k p : Going s k -> r_end (step' s k p) = E_running -> Going (step' s k p) (S k).
Proof.
  intros [E F D L]. destruct (step_running requires_met cfg oc s k p E) as [q _|e _|rs _ _|rs _ _ _|rs _].
  - discriminate.
  - intros X. contradiction (fail_end_stops _ _ X).
  - intros _. constructor; cbn; auto using Dealt.
  - destruct (c_on_error cfg); discriminate.
  - destruct (part_effect_of _ _ _ _) as [um c|f c|x|]; cbn; intros X.
    + constructor; cbn; [reflexivity | exact F | exact (dealt_r _ _ _ D) | rewrite map_app, L; reflexivity].
    + contradiction (fail_end_stops _ _ X).
    + contradiction (end_of_stops _ X).
    + contradiction (fail_end_stops _ _ X).
Qed.

Lemma run_parts_cases ps : forall s k, Going s k ->
  let st := run_parts' s k ps in
  Going st (k + length ps) \/
  exists s1 i p, Going s1 i /\ (i < k + length ps)%nat /\ st = step' s1 i p /\ r_end st <> E_running.
Proof.
  induction ps as [|p ps IH]; intros s k G; cbn [run_parts length].
  - left. rewrite Nat.add_0_r. exact G.
  - rewrite <- Nat.add_succ_comm.
    assert (D : r_end (step' s k p) = E_running \/ r_end (step' s k p) <> E_running)
      by (destruct (r_end (step' s k p)); [left; reflexivity | right; discriminate ..]).
    destruct D as [E|E]; [exact (IH _ _ (going_step s k p G E))|].
    right. exists s, k, p. rewrite run_parts_frozen by exact E. refine (conj G (conj _ (conj eq_refl E))). lia.
Qed.

Definition final (ps : list part) : rstate := run_parts' (init_state cfg) 0 ps.

Lemma run_cases ps :
  Going (final ps) (length ps) \/
  exists s i p, Going s i /\ (i < length ps)%nat /\ final ps = step' s i p /\ r_end (final ps) <> E_running.
Proof. exact (run_parts_cases ps _ _ going_init). Qed.

(* cases on the step that ends the loop (Hend): no oracle entry, directive error, import failure, effect Fail / Stop /
   NoCompile *)
Ltac ending_step G Hend :=
  match type of Hend with r_end (step _ _ _ ?s ?i ?p) <> _ =>
    destruct (step_running requires_met cfg oc s i p (go_running _ _ G)) as [q _|e _|rs _ _|rs _ _ _|rs _]
  end;
  [ | |contradiction Hend; reflexivity| |destruct (part_effect_of _ _ _ _) as [um c|f' c|x|]; [contradiction Hend; reflexivity|..]];
  cbn in *.

(* a failure at part i has k = i when the part counts as neither skipped nor executed (directive error, compile
   error), k = i+1 when it was executed *)
Lemma final_dealt ps : exists k, (k <= length ps)%nat /\ Dealt k (r_skipped (final ps)) (r_executed (final ps)) /\
  forall i f, r_failed (final ps) = Some (Some i, f) -> (i < length ps /\ i <= k <= S i)%nat.
Proof.
  destruct (run_cases ps) as [G|(s & k & p & G & Hk & -> & Hend)].
  - exists (length ps). rewrite (go_nofail _ _ G). split; [lia|]. split; [apply G | discriminate].
  - pose proof (go_dealt _ _ G) as D. pose proof (go_nofail _ _ G) as NF.
    ending_step G Hend.
    (* not handed to exec: no oracle entry, directive error, import failure, NoCompile *)
    1-3,6: exists k; (split; [lia|]); split; [exact D|]; intros i f F; try congruence; injection F as -> _; lia.
    (* executed: Fail, Stop *)
    all: exists (S k); (split; [lia|]); split; [exact (dealt_r _ _ _ D)|]; intros i f F; try congruence; injection F as -> _; lia.
Qed.

Theorem fail_stop ps i f :
  let st := final ps in
  r_failed st = Some (Some i, f) ->
  (i < length ps)%nat /\
  (forall j, In j (r_executed st) \/ In j (r_skipped st) -> (j <= i)%nat) /\
  (forall j, (j < i)%nat -> In j (r_executed st) \/ In j (r_skipped st)).
Proof.
  intros st F. destruct (final_dealt ps) as (k & _ & D & HF). destruct (HF i f F) as [Hi Hk].
  split; [exact Hi|]. split; intros j Hj.
  - apply or_comm, (dealt_in _ _ _ D) in Hj. lia.
  - apply or_comm, (dealt_in _ _ _ D). lia.
Qed.

Theorem running_all_visited ps :
  let st := final ps in
  r_end st = E_running ->
  r_failed st = None /\ forall j, (j < length ps)%nat -> In j (r_executed st) \/ In j (r_skipped st).
Proof.
  intros st E. subst st. destruct (run_cases ps) as [G|(s & k & p & _ & _ & _ & Hend)]; [|contradiction].
  split; [exact (go_nofail _ _ G)|]. intros j Hj. apply or_comm, (dealt_in _ _ _ (go_dealt _ _ G)), Hj.
Qed.

(* the part whose step ends the loop is not among the skipped ones *)
Lemma ended_not_all_skipped ps : r_end (final ps) <> E_running -> (length (r_skipped (final ps)) < length ps)%nat.
Proof.
  destruct (run_cases ps) as [G|(s & k & p & G & Hk & -> & _)]; [intros X; contradiction (X (go_running _ _ G))|].
  intros Hend. pose proof (dealt_length _ _ _ (go_dealt _ _ G)). ending_step G Hend; lia.
Qed.

(* without a failure E_import_return does not occur and E_break is the graceful exit of an executed part *)
Lemma quiet_end_ran ps : r_failed (final ps) = None ->
  r_end (final ps) = E_break \/ r_end (final ps) = E_import_return -> r_executed (final ps) <> [].
Proof.
  destruct (run_cases ps) as [G|(s & k & p & G & _ & -> & Hend)].
  - rewrite (go_running _ _ G). intros _ [|]; discriminate.
  - ending_step G Hend; intros F [X|X]; try congruence.
    (* what is left is Stop: the part was executed *)
    all: intros Z; apply app_eq_nil in Z as [_ Z]; discriminate Z.
Qed.

Lemma run_summary_inv ps sm st : run requires_met cfg oc ps = R_summary sm st ->
  st = final ps /\ sm = post_run (length ps) st /\
  (r_end st = E_running \/ r_end st = E_break \/ r_end st = E_import_return).
Proof.
  unfold run. fold (final ps). destruct (r_end (final ps)) eqn:E; try discriminate;
    try (destruct (_ && _); [discriminate|]); intros [= <- <-]; auto.
Qed.

(* passed is defined as "neither failed nor skipped": the content is that a failure excludes "every part skipped" *)
Theorem summary_exactly_one ps sm st :
  run requires_met cfg oc ps = R_summary sm st ->
  (s_passed sm = true /\ s_failed sm = false /\ s_skipped sm = false) \/
  (s_passed sm = false /\ s_failed sm = true /\ s_skipped sm = false) \/
  (s_passed sm = false /\ s_failed sm = false /\ s_skipped sm = true).
Proof.
  intros H. apply run_summary_inv in H as (-> & -> & _). unfold post_run. cbn.
  destruct (r_failed (final ps)) eqn:F; [|destruct (Nat.eqb _ _); tauto].
  assert (L : (length (r_skipped (final ps)) < length ps)%nat).
  { apply ended_not_all_skipped. intros E. destruct (running_all_visited ps E). congruence. }
  apply Nat.lt_neq, Nat.eqb_neq in L. rewrite L. tauto.
Qed.

End Run.
