(* EllipsisProofs.v — the greedy scan of _ellipsis_match is sound and complete for the declarative wildcard relation. *)
From XD Require Import Model.StdDoctest Spec.EllipsisSpec Proofs.BaseFacts.
Open Scope N_scope.

Lemma InOrder_prepend ps x g : InOrder ps g -> InOrder ps (x ++ g).
Proof.
  intros H. destruct H as [g | p ps g1 g2 H].
  - constructor.
  - rewrite app_assoc. constructor. exact H.
Qed.

Lemma InOrder_nil_head ps g : InOrder ([] :: ps) g <-> InOrder ps g.
Proof.
  split; intro H.
  - inversion H; subst. simpl. apply InOrder_prepend. assumption.
  - apply (io_cons [] ps [] g) in H. exact H.
Qed.

Lemma scan_sound ws r : scan ws r = true -> InOrder ws r.
Proof.
  revert r; induction ws as [|w ws IH]; intros r; simpl.
  - intros _. constructor.
  - destruct (find_sub w r) as [i|] eqn:F; [|discriminate].
    intros H. destruct (find_sub_some _ _ _ F) as (a & b & -> & L).
    constructor. apply IH.
    replace (i + length w)%nat with (length (a ++ w)) in H by (rewrite app_length; lia).
    rewrite app_assoc in H. rewrite skipn_app_exact in H. exact H.
Qed.

Lemma scan_complete ws r : InOrder ws r -> scan ws r = true.
Proof.
  revert r. induction ws as [|p ps IH]; intros r H; [reflexivity|].
  inversion H as [|p' ps' g1 g2 H2]; subst. cbn [scan].
  destruct (find_sub_exists p g1 g2) as [i F]. rewrite F.
  pose proof (find_sub_least _ _ _ F g1 g2 eq_refl) as L.
  (* the leftmost occurrence ends inside g1 ++ p *)
  apply IH. rewrite app_assoc, skipn_app.
  replace (i + length p - length (g1 ++ p))%nat with O by (rewrite app_length; lia).
  apply InOrder_prepend, H2.
Qed.

Lemma scan_iff ws r : scan ws r = true <-> InOrder ws r.
Proof. split; [apply scan_sound | apply scan_complete]. Qed.

Lemma scan_nil_head ws r : scan ([] :: ws) r = scan ws r.
Proof. simpl. rewrite find_sub_nil. reflexivity. Qed.

Lemma scan_nil_last ws r : scan (ws ++ [[]]) r = scan ws r.
Proof.
  revert r. induction ws as [|w ws IH]; intros r; cbn [app scan]; [rewrite find_sub_nil; reflexivity|].
  destruct (find_sub w r); [apply IH | reflexivity].
Qed.

Lemma split_go_nonempty s p q k e : split_go s p q k e <> [].
Proof.
  revert p q k e; induction s as [|c s IH]; intros p q k e; cbn [split_go]; [discriminate|].
  destruct k; [|apply IH].
  destruct (starts_with marker (c :: s)); [discriminate|].
  destruct (is_space c); [destruct e|]; apply IH.
Qed.

Lemma split_go_marker s : forall p q e, contains marker s = (1 <? length (split_go s p q 0 e))%nat.
Proof.
  induction s as [|c s IH]; intros p q e; [reflexivity|].
  rewrite contains_cons. cbn [split_go]. destruct (starts_with marker (c :: s)); cbn [orb].
  - pose proof (split_go_nonempty s [] [] 2 true) as N. destruct (split_go s [] [] 2 true); [contradiction|reflexivity].
  - destruct (is_space c); [destruct e|]; apply IH.
Qed.

Lemma split_ell_shape want :
  contains marker want = true ->
  exists w0 mids wl, split_ell want = w0 :: mids ++ [wl].
Proof.
  unfold split_ell. rewrite (split_go_marker want [] [] false).
  destruct (split_go want [] [] 0 false) as [|w0 [|r rest]]; try discriminate. intros _.
  destruct (exists_last (l := r :: rest)) as (mids & wl & E); [discriminate|].
  exists w0, mids, wl. rewrite E. reflexivity.
Qed.

Lemma last_opt_app {A} (l : list A) x : last_opt (l ++ [x]) = Some x.
Proof. unfold last_opt. rewrite rev_app_distr. reflexivity. Qed.

Lemma ltb_guard a b (X : bool) : (if (b <? a)%nat then false else X) = (a <=? b)%nat && X.
Proof. rewrite Nat.ltb_antisym. destruct (a <=? b)%nat; reflexivity. Qed.

(* by conversion; stated so that later proofs rewrite with it and leave ellipsis_match folded *)
Lemma ellipsis_match_pieces got want :
  ellipsis_match got want =
  if negb (contains marker want) then eqb_str want got else match_pieces (split_ell want) got.
Proof. reflexivity. Qed.

Lemma match_pieces_closed got w0 mids wl :
  match_pieces (w0 :: mids ++ [wl]) got =
    starts_with w0 got && ends_with wl got &&
    (length w0 <=? length got - length wl)%nat &&
    scan mids (slice (length w0) (length got - length wl) got).
Proof.
  unfold match_pieces. destruct w0 as [|a w0]; cbn [nonempty].
  - (* unanchored at the start: the empty piece stays in the list and the scan finds it *)
    cbv beta iota zeta. cbn [negb]. rewrite app_comm_cons, last_opt_app. destruct wl as [|b wl]; cbn [nonempty].
    + cbv beta iota zeta. cbn [negb length]. rewrite ends_with_nil, Nat.sub_0_r, ltb_guard. cbn [app].
      rewrite scan_nil_head, scan_nil_last. reflexivity.
    + destruct (ends_with (b :: wl) got); cbv beta iota zeta; cbn [negb andb]; [|reflexivity].
      rewrite removelast_last, ltb_guard, scan_nil_head. reflexivity.
  - destruct (starts_with (a :: w0) got); cbv beta iota zeta; cbn [negb andb]; [|reflexivity].
    rewrite last_opt_app. destruct wl as [|b wl]; cbn [nonempty].
    + cbv beta iota zeta. cbn [negb length]. rewrite ends_with_nil, Nat.sub_0_r, ltb_guard, scan_nil_last. reflexivity.
    + destruct (ends_with (b :: wl) got); cbv beta iota zeta; cbn [negb andb]; [|reflexivity].
      rewrite removelast_last. apply ltb_guard.
Qed.

(* what match_pieces decides on two or more pieces, whichever split made them *)
Definition PiecesMatch (w0 : str) (mids : list str) (wl got : str) : Prop :=
  exists rest, got = w0 ++ rest ++ wl /\ InOrder mids rest.

Lemma match_pieces_iff got w0 mids wl :
  match_pieces (w0 :: mids ++ [wl]) got = true <-> PiecesMatch w0 mids wl got.
Proof.
  rewrite match_pieces_closed, !andb_true_iff. split.
  - intros [[[H1 H2] H3] H4].
    apply starts_with_spec in H1 as [t H1]. apply ends_with_spec in H2 as [u H2].
    apply Nat.leb_le in H3. apply scan_iff in H4.
    exists (slice (length w0) (length got - length wl) got). split; [|exact H4].
    eapply split_three; eauto.
  - intros (rest & Hg & Hio). subst got. repeat split.
    + apply starts_with_app.
    + apply ends_with_spec. exists (w0 ++ rest). rewrite <- app_assoc. reflexivity.
    + apply Nat.leb_le. rewrite !app_length. lia.
    + apply scan_iff. rewrite slice_middle. exact Hio.
Qed.

Theorem ellipsis_match_iff got want :
  ellipsis_match got want = true <-> EllMatch got want.
Proof.
  unfold EllMatch. rewrite ellipsis_match_pieces. destruct (contains marker want) eqn:Hc; cbn [negb].
  - destruct (split_ell_shape want Hc) as (w0 & mids & wl & Hs). rewrite Hs, match_pieces_iff. split.
    + intros (rest & Hg & Hio). exists w0, mids, wl, rest. auto.
    + intros (w0' & mids' & wl' & rest & Hs' & Hg & Hio).
      inversion Hs' as [[E0 E1]]. apply app_inj_tail in E1 as [-> ->]. exists rest. auto.
  - rewrite eqb_str_spec. split; congruence.
Qed.
