(* ContainProofs.v — C14: whatever the oracles answer or raise (short of "oracle entry missing"), DoctestParser.parse
   returns parts or the library's own parse error. *)
From XD Require Import Model.Parser.

(* not the model's artefact "oracle entry missing" *)
Definition NN {A} (r : res A) : Prop := forall q, r <> Err (E_Need q).

Lemma NN_ok {A} (a : A) : NN (Ok a). Proof. intros q; discriminate. Qed.
Lemma NN_bind {A B} (r : res A) (f : A -> res B) : NN r -> (forall a, NN (f a)) -> NN (bind r f).
Proof. intros H1 H2 q. destruct r as [a|e]; simpl; [apply H2 | intro X; apply (H1 q); inversion X; reflexivity]. Qed.
Lemma NN_cons_res {A} (x : A) r : NN r -> NN (cons_res x r).
Proof. intros H q. destruct r; simpl; [discriminate | intro X; apply (H q); inversion X; reflexivity]. Qed.
Lemma NN_err {A} e : (forall q, e <> E_Need q) -> NN (@Err A e).
Proof. intros H q X. apply (H q). inversion X; reflexivity. Qed.
Lemma NN_err_inv {A} (r : res A) e : NN r -> r = Err e -> forall q, e <> E_Need q.
Proof. intros H -> q ->. exact (H q eq_refl). Qed.

Section Contain.
Variable o : oracles.
Hypothesis Htok : forall l, NN (o_tok o l).
Hypothesis Hast : forall l, NN (o_ast o l).
Hypothesis Hsemi : forall l, NN (o_semi o l).
Hypothesis Hdirs : forall l, NN (o_dirs o l).

(* one syntactic step of the NN closure; the oracle hypotheses are tried last *)
Ltac nn_step :=
  first [ apply NN_ok | (apply NN_err; discriminate) | assumption
        | apply NN_cons_res
        | apply NN_bind; [|intros]
        | match goal with
          | |- NN (match ?x with _ => _ end) => destruct x
          | |- NN (if ?x then _ else _) => destruct x
          | |- NN (let '(_, _) := ?x in _) => destruct x
          end
        | apply Htok | apply Hast | apply Hsemi | apply Hdirs ].
(* tac closes the calls of functions dealt with before *)
Ltac nn_with tac := repeat first [ tac | nn_step ].
Ltac nn := repeat nn_step.

Lemma NN_bal l : NN (o_bal o l).
Proof. unfold o_bal, is_balanced. nn. Qed.

Lemma NN_label_go lines : forall st, NN (label_go (o_bal o) lines st).
Proof.
  induction lines as [|line rest IH]; intros st; cbn [label_go]; nn_with ltac:(first [apply NN_bal | apply IH]).
Qed.

Lemma NN_pass3 groups : forall prev, NN (pass3 groups prev).
Proof.
  induction groups as [|[state group] rest IH]; intros prev; cbn [pass3]; nn; try apply IH.
Qed.

Lemma NN_find_start lines b a1 : NN (find_start (o_bal o) lines b a1).
Proof. induction a1 as [|a IH]; cbn [find_start]; nn_with ltac:(first [apply NN_bal | exact IH]). Qed.

Lemma NN_intervals_go lines fuel : forall b a1, NN (intervals_go (o_bal o) lines fuel b a1).
Proof.
  induction fuel as [|f IH]; intros b a1; cbn [intervals_go]; nn_with ltac:(first [apply NN_find_start | apply IH]).
Qed.

Lemma NN_locate_ps1 src : NN (locate_ps1 o src).
Proof.
  unfold locate_ps1, balanced_intervals. nn_with ltac:(apply NN_intervals_go).
Qed.

Lemma NN_ps1_directives exec_lines ps1 : NN (ps1_directives o exec_lines ps1).
Proof. induction ps1 as [|s1 rest IH]; cbn [ps1_directives]; nn_with ltac:(exact IH). Qed.

Lemma NN_map_res {A B} (f : A -> res B) l : (forall x, NN (f x)) -> NN (map_res f l).
Proof. intros H. induction l as [|x l IH]; cbn [map_res]; nn; try apply H; try exact IH. Qed.

(* slice_example looks inside the error (besides Parser.wrap at the top): all but E_Need become p_dirs_raise *)
Lemma NN_slice_example ex src tab lineno s1 s2 want mode : NN (slice_example ex src tab o lineno s1 s2 want mode).
Proof.
  unfold slice_example. destruct (lookup_nat s1 tab); [apply NN_ok|].
  destruct (o_dirs o (slice_to s1 s2 ex)) as [ds|e] eqn:D; [apply NN_ok|].
  destruct e; try apply NN_ok. exfalso. apply (Hdirs (slice_to s1 s2 ex) q). exact D.
Qed.

Lemma NN_package_chunk s w lineno : NN (package_chunk o s w lineno).
Proof.
  unfold package_chunk.
  nn_with ltac:(first [apply NN_locate_ps1 | apply NN_ps1_directives | apply NN_slice_example
                      | (apply NN_map_res; intros; apply NN_slice_example)]).
Qed.

Lemma NN_package_groups chunks : forall lineno, NN (package_groups o chunks lineno).
Proof.
  induction chunks as [|c rest IH]; intros lineno; cbn [package_groups];
    nn_with ltac:(first [apply NN_package_chunk | apply IH]).
Qed.

Theorem parse_contained s :
  (exists items, parse o s = Parsed items) \/ (exists fp e, parse o s = ParseError fp e /\ forall q, e <> E_Need q).
Proof.
  assert (W : forall fp e, (forall q, e <> E_Need q) ->
              exists fp' e', wrap fp e = ParseError fp' e' /\ forall q, e' <> E_Need q).
  { intros fp e H. exists fp, e. split; [|exact H]. destruct e; try reflexivity. contradiction (H q). reflexivity. }
  unfold parse, label_lines, group_lines.
  destruct (label_go _ _ _) as [ll|e] eqn:L; [|right; apply W; exact (NN_err_inv _ _ (NN_label_go _ _) L)].
  destruct (pass3 _ _) as [gs|e] eqn:G; [|right; apply W; exact (NN_err_inv _ _ (NN_pass3 _ _) G)].
  destruct (package_groups o gs 0) as [items|e] eqn:P; [|right; apply W; exact (NN_err_inv _ _ (NN_package_groups _ _) P)].
  left. eexists. reflexivity.
Qed.

End Contain.
