(* StdOutputProofs.v — C20: what the standard doctest module's OutputChecker accepts, xdoctest's check_output accepts in
   its default state (std_output_accepted_gen).  Plain, "no marker text in the output" and "not True for 1" exclude
   texts on which xdoctest really is stricter (F6f, F6h, F6i; F6g; F6d); "no '...' in the output under ELLIPSIS" is
   what core_to_check_output needs against the unquoting of NORMALIZE_REPR, and is not known to be necessary. *)
From XD Require Import Model.StdOutput Spec.EllipsisSpec Spec.MatchRel Proofs.BaseFacts
  Proofs.EllipsisProofs Proofs.CheckerProofs Proofs.StdEllipsisProofs Proofs.FormatProofs Proofs.WordsFacts
  Proofs.EllCollapse.
Open Scope N_scope.

(* no colour codes (F6i), no string-prefix letters in front of quotes (F6f), no carriage returns (F6h) *)
Definition Plain (s : str) : Prop :=
  strip_ansi s = s /\ rm_prefix is_uU s = s /\ rm_prefix is_bB s = s /\ ~ In CR s.
(* xdoctest rewrites the marker text wherever it stands, the standard module only a line that is the marker followed
   by white space only *)
Definition LineOK (l : str) : Prop := NoNL l /\ (l = BLANKLINE \/ contains BLANKLINE l = false).
Definition demark (l : str) : str := if eqb_str l BLANKLINE then [] else l.

Lemma default_ws_norm s : ws_norm default_flags s = collapse_ws s.
Proof. reflexivity. Qed.

Lemma base_got_plain got : Plain got -> collapse_ws (base_got got) = collapse_ws got.
Proof.
  intros (Ha & Hu & Hb & Hc). unfold base_got. rewrite Ha, Hu, Hb. apply collapse_words_eq, words_tail_steps, Hc.
Qed.

Lemma in_rm_blankline_go c s : forall skip eat, In c (rm_blankline_go s skip eat) -> In c s \/ c = NL.
Proof.
  induction s as [|x s IH]; intros skip eat; cbn [rm_blankline_go]; [intros []|].
  assert (K : forall k e, In c (rm_blankline_go s k e) -> In c (x :: s) \/ c = NL).
  { intros k e H. destruct (IH k e H); [left; right|right]; assumption. }
  destruct skip; [|apply K]. destruct (eat && (x =? NL)); [apply K|].
  (* a newline, a newline or x is written, then the scan goes on *)
  destruct (starts_with BLANKLINE (x :: s)); [|destruct ((x =? NL) && starts_with BLANKLINE s)];
    (intros [E|H]; [|exact (K _ _ H)]).
  - right. symmetry. exact E.
  - right. symmetry. exact E.
  - left. left. exact E.
Qed.

Lemma base_want_plain want : Plain want ->
  collapse_ws (base_want default_flags want) = collapse_ws (rm_blankline want).
Proof.
  intros (Ha & Hu & Hb & Hc). unfold base_want. rewrite Ha, Hu, Hb. cbn [DONT_ACCEPT_BLANKLINE default_flags].
  apply collapse_words_eq, words_tail_steps. intros H. apply in_rm_blankline_go in H as [H|H]; [contradiction|discriminate H].
Qed.

Lemma notin_forallb (x : char) s : forallb (fun c => negb (c =? x)) s = true -> ~ In x s.
Proof. intros H Hx. rewrite forallb_forall in H. apply H in Hx. rewrite N.eqb_refl in Hx. discriminate Hx. Qed.

Lemma blankline_no_nl : ~ In NL BLANKLINE.
Proof. apply notin_forallb. reflexivity. Qed.

Lemma starts_with_app_nonl p : forall x r, ~ In NL p -> starts_with p (x ++ NL :: r) = true -> starts_with p x = true.
Proof.
  induction p as [|a p IH]; intros x r Hp H; [destruct x; reflexivity|].
  destruct x as [|b x].
  - cbn in H. destruct (a =? NL) eqn:E; [|discriminate H]. apply N.eqb_eq in E. subst. exfalso. apply Hp. left. reflexivity.
  - cbn in H |- *. destruct (a =? b); [|discriminate H]. apply (IH x r); [|exact H]. intros ?. apply Hp. right. assumption.
Qed.

Lemma starts_contains p x : starts_with p x = true -> contains p x = true.
Proof. intros H. apply starts_with_spec in H as (t & ->). apply contains_spec. exists [], t. reflexivity. Qed.

(* join_nl (l :: rest) = l ++ jr rest; what stands behind the content of a line is empty or starts with white space *)
Definition jr (rest : list str) : str := concat (map (fun l => NL :: l) rest).

Lemma jr_wsstart rest : WsStart (jr rest).
Proof. destruct rest as [|l rest]; [left; reflexivity|right]. exists NL, (l ++ jr rest). split; reflexivity. Qed.

Lemma join_nl_jr l rest : join_nl (l :: rest) = l ++ jr rest.
Proof. exact (join_cons [NL] l rest). Qed.

Lemma no_marker_start x rest : contains BLANKLINE x = false -> starts_with BLANKLINE (x ++ jr rest) = false.
Proof.
  intros Hx. destruct (starts_with BLANKLINE (x ++ jr rest)) eqn:E; [|reflexivity].
  destruct rest as [|m rest].
  - rewrite app_nil_r in E. apply starts_contains in E. congruence.
  - apply starts_with_app_nonl in E; [|exact blankline_no_nl]. apply starts_contains in E. congruence.
Qed.

Lemma rmb_copy l rest : NoNL l -> contains BLANKLINE l = false ->
  rm_blankline_go (l ++ jr rest) 0 false = l ++ rm_blankline_go (jr rest) 0 false.
Proof.
  induction l as [|c l IH]; intros Hn Hc; [reflexivity|].
  cbn [app rm_blankline_go andb]. change (c :: l ++ jr rest) with ((c :: l) ++ jr rest). rewrite (no_marker_start _ rest Hc).
  apply NoNL_cons in Hn as [E Hn]. rewrite E. cbn [andb].
  rewrite contains_cons in Hc. apply orb_false_elim in Hc as [_ Hc]. rewrite IH by assumption. reflexivity.
Qed.

Lemma rmb_skip x : forall r eat, rm_blankline_go (x ++ r) (length x) eat = rm_blankline_go r 0 eat.
Proof. induction x as [|c x IH]; intros r eat; [reflexivity|]. cbn [app length rm_blankline_go]. apply IH. Qed.

Lemma rmb_marker_start r : rm_blankline_go (BLANKLINE ++ r) 0 false = NL :: rm_blankline_go r 0 true.
Proof. reflexivity. Qed.

Lemma rmb_nl_marker r : rm_blankline_go (NL :: BLANKLINE ++ r) 0 false = NL :: rm_blankline_go r 0 false.
Proof. reflexivity. Qed.

Lemma rmb_nl_other x : starts_with BLANKLINE x = false ->
  rm_blankline_go (NL :: x) 0 false = NL :: rm_blankline_go x 0 false.
Proof. intros H. cbn [rm_blankline_go andb]. rewrite H, andb_false_r. reflexivity. Qed.

Lemma rmb_eat_nl r : rm_blankline_go (NL :: r) 0 true = rm_blankline_go r 0 false.
Proof. reflexivity. Qed.

Lemma demark_marker : demark BLANKLINE = [].
Proof. reflexivity. Qed.
Lemma demark_other l : contains BLANKLINE l = false -> demark l = l.
Proof.
  intros H. unfold demark. destruct (eqb_str l BLANKLINE) eqn:E; [|reflexivity].
  apply eqb_str_spec in E. subst l. discriminate H.
Qed.

Lemma words_nl_cons x : words (NL :: x) = words x.
Proof. apply words_space, NL_space. Qed.

Lemma noNL_nil : NoNL [].
Proof. intros c []. Qed.

Lemma rmb_wsstart rest : WsStart (rm_blankline_go (jr rest) 0 false).
Proof.
  destruct rest as [|m rest]; [left; reflexivity|right]. change (jr (m :: rest)) with (NL :: m ++ jr rest).
  cbn [rm_blankline_go andb].
  (* every branch that a newline can take writes the newline *)
  destruct (starts_with BLANKLINE (NL :: m ++ jr rest)); [|destruct ((NL =? NL) && starts_with BLANKLINE (m ++ jr rest))];
    eexists _, _; (split; [reflexivity|exact NL_space]).
Qed.

(* the scan stands behind the content of a line; eat = true: that line was the marker and the newline behind it goes
   with it (also how the scan of a whole text starts, rmb_eat_nl) *)
Lemma rmb_lines ls : Forall LineOK ls -> forall eat,
  words (rm_blankline_go (jr ls) 0 eat) = concat (map words (map demark ls)).
Proof.
  induction 1 as [|m rest (Hn & Hm) HF IH]; intros eat; [destruct eat; reflexivity|].
  change (jr (m :: rest)) with (NL :: m ++ jr rest). cbn [map concat]. destruct Hm as [->|Hc].
  - (* a marker line goes with the newline in front of it, or else with the one behind it *)
    destruct eat; [rewrite rmb_eat_nl, rmb_marker_start|rewrite rmb_nl_marker]; rewrite words_nl_cons; apply IH.
  - (* any other line is copied *)
    assert (E : words (rm_blankline_go (NL :: m ++ jr rest) 0 eat) = words (rm_blankline_go (m ++ jr rest) 0 false)).
    { destruct eat; [reflexivity|]. rewrite rmb_nl_other, words_nl_cons by apply no_marker_start, Hc. reflexivity. }
    rewrite E, rmb_copy, words_app_wsstart, IH, demark_other by (assumption || apply rmb_wsstart). reflexivity.
Qed.

Lemma words_rm_blankline ls : ls <> [] -> Forall LineOK ls ->
  words (rm_blankline (join_nl ls)) = concat (map words (map demark ls)).
Proof.
  intros Hne HF. destruct ls as [|l rest]; [contradiction|]. rewrite join_nl_jr. exact (rmb_lines (l :: rest) HF true).
Qed.

Lemma marker_line_ok l : LineOK l -> (if is_marker_line l then [] else l) = demark l.
Proof.
  intros (_ & [->|Hc]); [reflexivity|].
  unfold is_marker_line. destruct (starts_with BLANKLINE l) eqn:E.
  - apply starts_contains in E. congruence.
  - cbn [andb]. symmetry. apply demark_other, Hc.
Qed.

Lemma join_nl_snoc_empty ls : ls <> [] -> join_nl (ls ++ [[]]) = join_nl ls ++ [NL].
Proof. intros H. rewrite join_nl_app by (auto; discriminate). reflexivity. Qed.

Lemma std_rm_blank_lines ls : ls <> [] -> Forall LineOK ls ->
  std_rm_blank (join_nl ls ++ [NL]) = join_nl (map demark ls ++ [[]]).
Proof.
  intros Hne HF. unfold std_rm_blank. rewrite <- join_nl_snoc_empty by exact Hne.
  rewrite split_join.
  - rewrite map_app. cbn [map]. f_equal. f_equal.
    apply map_ext_in. intros l Hl. apply marker_line_ok. rewrite Forall_forall in HF. apply HF, Hl.
  - destruct ls; [contradiction|discriminate].
  - apply Forall_app. split; [|constructor; [exact noNL_nil|constructor]].
    eapply Forall_impl; [|exact HF]. intros l (Hn & _). exact Hn.
Qed.

Lemma words_std_rm_blank ls : ls <> [] -> Forall LineOK ls ->
  words (std_rm_blank (join_nl ls ++ [NL])) = concat (map words (map demark ls)).
Proof.
  intros Hne HF. rewrite std_rm_blank_lines by assumption. rewrite words_join_nl, map_app, concat_app.
  cbn. rewrite app_nil_r. reflexivity.
Qed.

Lemma words_ws_only l : (if ws_only_line l then [] else l) = [] \/ (if ws_only_line l then [] else l) = l.
Proof. destruct (ws_only_line l); [left|right]; reflexivity. Qed.

Lemma words_std_blank_got got : words (std_blank_got got) = words got.
Proof.
  unfold std_blank_got. rewrite words_join_nl. rewrite <- (join_split_nl got) at 2. rewrite words_join_nl.
  f_equal. rewrite map_map. apply map_ext. intros l. unfold ws_only_line.
  destruct (nonempty l && forallb is_space l) eqn:E; [|reflexivity].
  apply andb_prop in E as [_ E]. symmetry. apply words_all_space, E.
Qed.

(* NORMALIZE_REPR is on by default.  A want is unquoted only if that makes it match the got: then it is the got *)
Lemma core_unquoted fl G Wn :
  Core fl G Wn -> (forall a, check_match fl a G = true -> a = G) -> Core fl G (norm_repr fl Wn G).
Proof.
  intros HC Hm. unfold norm_repr. destruct (check_match fl Wn G); [exact HC|].
  destruct (check_match fl (strip_outer Wn) G) eqn:E; [|rewrite !andb_false_r; exact HC].
  rewrite (Hm _ E). destruct (quoted_by QUOTE2 Wn), (quoted_by QUOTE1 Wn); cbn [andb]; (exact HC || (left; reflexivity)).
Qed.

Lemma check_match_markerless fl a G : contains marker G = false -> check_match fl a G = true -> a = G.
Proof.
  intros Hc. unfold check_match. destruct (eqb_str a G) eqn:E; [intros _; apply eqb_str_spec, E|].
  destruct (ELLIPSIS fl); [|discriminate]. unfold ellipsis_match. rewrite Hc. cbn [negb].
  intros H. apply eqb_str_spec in H. symmetry. exact H.
Qed.

Lemma core_to_check_output fl got want :
  Core fl (NGot fl got) (NWant fl want) -> contains marker (NGot fl got) = false -> check_output fl got want = true.
Proof.
  intros HC Hm. apply check_output_iff. right. right. destruct (NORMALIZE_REPR fl); [|exact HC].
  exists (NGot fl got), (norm_repr fl (NWant fl want) (NGot fl got)).
  split; [left; split; [exact HC|reflexivity]|]. split; [apply norm_repr_unquote|].
  apply core_unquoted; [exact HC|]. intros a. apply check_match_markerless, Hm.
Qed.

Lemma in_join_nl l ls : In l ls -> exists a b, join_nl ls = a ++ l ++ b.
Proof.
  induction ls as [|m|m k ls IH] using list_ind_join; intros H; [destruct H| |rewrite join_nl_cons; destruct H as [->|H]].
  - destruct H as [->|[]]. exists [], []. cbn. symmetry. apply app_nil_r.
  - exists [], (NL :: join_nl (k :: ls)). reflexivity.
  - destruct (IH H) as (a & b & E). rewrite E. exists (m ++ NL :: a), b. rewrite <- app_assoc. reflexivity.
Qed.

Lemma contains_inside p a x b : contains p x = true -> contains p (a ++ x ++ b) = true.
Proof.
  intros H. apply contains_spec in H as (u & v & ->). apply contains_spec. exists (a ++ u), (v ++ b).
  rewrite <- !app_assoc. reflexivity.
Qed.

Lemma demark_all_id ls t : contains BLANKLINE (join_nl ls ++ t) = false -> map demark ls = ls.
Proof.
  intros H. rewrite <- (map_id ls) at 2. apply map_ext_in. intros l Hl. apply demark_other.
  destruct (contains BLANKLINE l) eqn:E; [|reflexivity].
  destruct (in_join_nl l ls Hl) as (a & b & J). rewrite J, <- !app_assoc, contains_inside in H by exact E. discriminate H.
Qed.

Lemma std_ellipsis_EllMatch want got : std_ellipsis_match want got = true -> EllMatch got want.
Proof. intros H. apply ellipsis_match_iff, std_ellipsis_implies_xdoctest, H. Qed.

Section Pipeline.
  Variables (e n : bool) (ls : list str) (got : str).
  Let W := join_nl ls.
  Hypothesis Hne : ls <> [].
  Hypothesis HF : Forall LineOK ls.
  Hypothesis Hwant : Plain W.
  (* got: what the standard module compares (ends with the newline that print or the echo wrote);
     got': what xdoctest compares (an echoed value's repr comes without that newline) *)
  Variable got' : str.
  Hypothesis Hgot : Plain got'.
  Hypothesis Hsame : words got' = words got.

  Let WG := words got.
  Let WW := concat (map words (map demark ls)).

  Lemma ngot_words : NGot default_flags got' = join [SP] WG.
  Proof. unfold NGot. rewrite default_ws_norm, base_got_plain by exact Hgot. unfold collapse_ws, WG. rewrite Hsame. reflexivity. Qed.

  Lemma nwant_words : NWant default_flags W = join [SP] WW.
  Proof.
    unfold NWant. rewrite default_ws_norm, base_want_plain by exact Hwant. unfold collapse_ws, W.
    rewrite words_rm_blankline by assumption. reflexivity.
  Qed.

  Lemma std_got_collapse : collapse_ws (std_blank_got got) = join [SP] WG.
  Proof. unfold collapse_ws. rewrite words_std_blank_got. reflexivity. Qed.

  Lemma std_want_collapse : collapse_ws (std_rm_blank (W ++ [NL])) = join [SP] WW.
  Proof. unfold collapse_ws, W. rewrite words_std_rm_blank by assumption. reflexivity. Qed.

  (* each of the standard checker's tests gives equal word lists or, under ELLIPSIS, the wildcard relation *)
  Lemma std_accepted_words :
    contains BLANKLINE got = false ->                     (* the output does not hold the marker text (F6g) *)
    true_for_1 (W ++ [NL]) got = false ->                 (* not True for 1 / False for 0 (F6d) *)
    std_check_output e n (W ++ [NL]) got = true ->
    join [SP] WG = join [SP] WW \/ (e = true /\ EllMatch (join [SP] WG) (join [SP] WW)).
  Proof.
    intros Hnm Ht1. unfold std_check_output. rewrite Ht1.
    destruct (eqb_str got (W ++ [NL])) eqn:E1.
    { (* identical texts: no line of the want is the marker *)
      intros _. apply eqb_str_spec in E1. left. f_equal. unfold WG, WW, W in *. rewrite E1 in Hnm |- *.
      rewrite words_app_trailing, words_join_nl, (demark_all_id ls [NL] Hnm) by reflexivity. reflexivity. }
    (* the later tests are on the texts with marker lines and white-space-only lines emptied *)
    rewrite <- std_got_collapse, <- std_want_collapse.
    destruct (eqb_str (std_blank_got got) (std_rm_blank (W ++ [NL]))) eqn:E3.
    { intros _. apply eqb_str_spec in E3. left. rewrite E3. reflexivity. }
    destruct n; cbn [andb].
    - (* NORMALIZE_WHITESPACE: the standard module compares the collapsed texts *)
      destruct (eqb_str (collapse_ws _) _) eqn:E4; [intros _; left; apply eqb_str_spec, E4|].
      destruct e; [|discriminate]. intros H. right. split; [reflexivity|]. apply std_ellipsis_EllMatch, H.
    - (* ELLIPSIS alone: the wildcard relation survives xdoctest's collapsing *)
      destruct e; [|discriminate]. intros H. right. split; [reflexivity|]. apply ellmatch_collapse, std_ellipsis_EllMatch, H.
  Qed.

  Theorem std_output_accepted_gen :
    contains BLANKLINE got = false ->
    true_for_1 (W ++ [NL]) got = false ->
    (e = true -> contains marker got = false) ->          (* a wildcard want: the output holds no '...' itself *)
    std_check_output e n (W ++ [NL]) got = true ->
    check_output default_flags got' W = true.
  Proof.
    intros Hnm Ht1 Hnoell Hstd.
    destruct (std_accepted_words Hnm Ht1 Hstd) as [E|[He H]].
    - apply check_output_norm_eq. rewrite ngot_words, nwant_words. exact E.
    - apply core_to_check_output; rewrite ngot_words.
      + rewrite nwant_words. right. split; [reflexivity|exact H].
      + change (join [SP] WG) with (collapse_ws got). rewrite marker_collapse. apply Hnoell, He.
  Qed.
End Pipeline.

(* the instance where ELLIPSIS comes with NORMALIZE_WHITESPACE on the standard side and the marker is looked for in the
   collapsed output *)
Theorem std_output_accepted_partial e n ls got :
  ls <> [] -> Forall LineOK ls -> Plain got -> Plain (join_nl ls) ->
  contains BLANKLINE got = false ->
  true_for_1 (join_nl ls ++ [NL]) got = false ->
  (e = true -> contains marker (collapse_ws got) = false) ->
  (e = true -> n = true) ->
  std_check_output e n (join_nl ls ++ [NL]) got = true ->
  check_output default_flags got (join_nl ls) = true.
Proof.
  intros Hne HF Hg Hw Hnm Ht Hell _.
  apply (std_output_accepted_gen e n ls got Hne HF Hw got Hg eq_refl); try assumption.
  intros He. rewrite <- marker_collapse. apply Hell, He.
Qed.

(* the hypotheses can be met, with a marker line in the want and blanks that differ *)
Definition demo_want_lines : list str := [[97;32;98]; BLANKLINE; [99]].                  (* "a b", "<BLANKLINE>", "c" *)
Definition demo_got : str := [97;32;98;10;32;32;10;99;10].                             (* "a b\n  \nc\n" *)
Example demo_std_output_hyps :
  demo_want_lines <> [] /\ Forall LineOK demo_want_lines /\ Plain demo_got /\ Plain (join_nl demo_want_lines) /\
  contains BLANKLINE demo_got = false /\ true_for_1 (join_nl demo_want_lines ++ [NL]) demo_got = false /\
  std_check_output false false (join_nl demo_want_lines ++ [NL]) demo_got = true /\
  eqb_str demo_got (join_nl demo_want_lines ++ [NL]) = false.
Proof.
  split; [discriminate|]. split.
  { repeat constructor; try (apply NoNL_forallb; reflexivity); try (left; reflexivity); right; reflexivity. }
  split; [repeat split; try reflexivity; apply notin_forallb; reflexivity|].
  split; [repeat split; try reflexivity; apply notin_forallb; reflexivity|].
  repeat split; reflexivity.
Qed.
