(* StdOutputFull.v — StdOutputProofs.std_output_accepted_gen when the text xdoctest compares is the very text the standard
   OutputChecker compares (C20 lifts it to the run loop's comparison of one example): every flag setting of the standard
   OutputChecker that a '# doctest:' directive can produce is covered. *)
From XD Require Import Model.StdOutput Proofs.StdOutputProofs.
Open Scope N_scope.

Theorem std_output_accepted e n ls got :
  ls <> [] -> Forall LineOK ls -> Plain got -> Plain (join_nl ls) ->
  contains BLANKLINE got = false ->
  true_for_1 (join_nl ls ++ [NL]) got = false ->
  (e = true -> contains marker got = false) ->
  std_check_output e n (join_nl ls ++ [NL]) got = true ->
  check_output default_flags got (join_nl ls) = true.
Proof. intros Hne HF Hg Hw. apply (std_output_accepted_gen e n ls got Hne HF Hw got Hg eq_refl). Qed.

(* a wildcard want under ELLIPSIS alone, white space that differs, a marker line: the hypotheses are satisfiable *)
Definition demo2_want_lines : list str := [[97;32;46;46;46]; BLANKLINE; [99]].          (* "a ...", "<BLANKLINE>", "c" *)
Definition demo2_got : str := [97;32;32;120;10;10;99;10].                              (* "a  x\n\nc\n" *)
Example demo_std_output_ellipsis_hyps :
  demo2_want_lines <> [] /\ Forall LineOK demo2_want_lines /\ Plain demo2_got /\ Plain (join_nl demo2_want_lines) /\
  contains BLANKLINE demo2_got = false /\ true_for_1 (join_nl demo2_want_lines ++ [NL]) demo2_got = false /\
  contains marker demo2_got = false /\
  std_check_output true false (join_nl demo2_want_lines ++ [NL]) demo2_got = true /\
  std_check_output false false (join_nl demo2_want_lines ++ [NL]) demo2_got = false.
Proof.
  split; [discriminate|]. split.
  { repeat constructor; try (apply FormatProofs.NoNL_forallb; reflexivity); try (left; reflexivity); right; reflexivity. }
  split; [repeat split; try reflexivity; apply notin_forallb; reflexivity|].
  split; [repeat split; try reflexivity; apply notin_forallb; reflexivity|].
  repeat split; reflexivity.
Qed.
