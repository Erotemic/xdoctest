(* C01Proofs.v — statements run once, in order; tab expansion; PS1 lines are statement starts (C01). *)
From XD Require Import Model.RunLoop Proofs.BaseFacts Proofs.ParserProofs Proofs.RunProofs.
Open Scope N_scope.

Inductive Increasing : list nat -> Prop :=
| inc_nil : Increasing []
| inc_one x : Increasing [x]
| inc_cons x y l : (x < y)%nat -> Increasing (y :: l) -> Increasing (x :: y :: l).

Lemma Increasing_app_one l k : Increasing l -> (forall j, In j l -> (j < k)%nat) -> Increasing (l ++ [k]).
Proof.
  induction 1 as [|x|x y l Hxy Hl IH]; intros H; simpl.
  - constructor.
  - constructor; [apply H; left; reflexivity | constructor].
  - constructor; [exact Hxy|]. apply IH. intros j Hj. apply H. right. exact Hj.
Qed.

Lemma dealt_increasing k a b : Dealt k a b -> Increasing a /\ Increasing b.
Proof.
  induction 1 as [|k a b D [IA IB]|k a b D [IA IB]]; [split; constructor| |]; split; try assumption;
    apply Increasing_app_one; try assumption; intros j Hj; apply (dealt_in _ _ _ D); auto.
Qed.

Lemma repeat_char_notab n : BreakFree (fun c => c =? TAB) (repeat_char SP n).
Proof. induction n as [|n IH]; intros c H; simpl in H; [contradiction|]. destruct H as [<-|H]; [reflexivity | apply IH; exact H]. Qed.

Lemma expandtabs_go_notab s : forall col, BreakFree (fun c => c =? TAB) (expandtabs_go s col).
Proof.
  induction s as [|c s IH]; intros col x H; simpl in H; [contradiction|].
  destruct (c =? TAB) eqn:E.
  - apply in_app_or in H. destruct H as [H|H]; [apply (repeat_char_notab _ _ H) | apply (IH _ _ H)].
  - destruct ((c =? NL) || (c =? CR)); destruct H as [<-|H]; try exact E; apply (IH _ _ H).
Qed.

Theorem expandtabs_idempotent s : expandtabs (expandtabs s) = expandtabs s.
Proof. unfold expandtabs. apply expandtabs_go_id. apply expandtabs_go_notab. Qed.

Lemma mem_nat_in x l : mem_nat x l = true <-> In x l.
Proof.
  induction l as [|y l IH]; simpl; [split; [discriminate | tauto]|].
  rewrite orb_true_iff, Nat.eqb_eq, IH. split; intros [->|H]; auto.
Qed.

Lemma index_filter_in {A} (f : A -> bool) l i x : In x (index_filter f l i) <->
  exists k a, nth_error l k = Some a /\ f a = true /\ x = (i + k)%nat.
Proof. apply (positions_in f (index_filter f)); reflexivity. Qed.

(* the statement starts found by _locate_ps1_linenos: exactly the lines where the ast starts a statement
   (its first decorator for a decorated one) and that carry the primary prompt; a '...'-prefixed line never
   starts a part.  stmts is the answer of the ast oracle on the source after the comment hack: locate_ps1_starts
   says so, the statement here does not keep that equation *)
Theorem ps1_are_statement_starts o src ps1 mode : locate_ps1 o src = Ok (ps1, mode) ->
  exists stmts, (forall x, In x ps1 <->
                   (exists s, In s stmts /\ st_line s = x) /\
                   (forall l, nth_error src x = Some l -> eqb_str (firstn 4 l) PS1sp = true)).
Proof.
  intros H. apply locate_ps1_starts in H as (ivs & stmts & _ & _ & ->). exists stmts. intros x.
  rewrite filter_In, sort_uniq_in, in_map_iff, negb_true_iff, <- not_true_iff_false, mem_nat_in, index_filter_in.
  split; intros [S P]; (split; [destruct S as (s & A & B); exists s; auto|]).
  - intros l Hl. destruct (eqb_str (firstn 4 l) PS1sp) eqn:E; [reflexivity|].
    contradiction P. exists x, l. rewrite E. auto.
  - intros (k & l & Hl & Hf & ->). rewrite (P l Hl) in Hf. discriminate Hf.
Qed.
