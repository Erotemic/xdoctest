(* FSProofs.v — module name <-> path resolution agrees with the import system (C17). *)
From XD Require Import Model.FS Spec.ImportResolve Proofs.BaseFacts.
Open Scope N_scope.

Section FS.
Variable fs : fsys.
Hypothesis W : WFfs fs.

(* the one place where WFfs is used: xdoctest tests `exists` / `isfile` of the __init__.py where the specification
   tests is_package *)
Lemma init_cases p : fs (p ++ [INIT]) = K_none \/ fs (p ++ [INIT]) = K_file /\ fs p = K_dir.
Proof.
  destruct (fs (p ++ [INIT])) eqn:E; [left; reflexivity | right | destruct (wf_init_file fs W _ E)].
  split; [reflexivity | apply (wf_parent fs W p INIT); congruence].
Qed.

Lemma exists_init_is_package p : exists_ fs (p ++ [INIT]) = is_package fs p.
Proof.
  unfold exists_, is_package, isdir, isfile. destruct (init_cases p) as [->|[-> ->]]; [destruct (fs p)|]; reflexivity.
Qed.

Lemma exists_and_init d : exists_ fs d && isfile fs (d ++ [INIT]) = is_package fs d.
Proof.
  unfold exists_, is_package, isdir, isfile. destruct (init_cases d) as [->|[-> ->]]; [destruct (fs d)|]; reflexivity.
Qed.

Lemma with_py_cons n m rest : with_py (n :: m :: rest) = n :: with_py (m :: rest).
Proof. reflexivity. Qed.

Lemma with_py_snoc mids n : with_py (mids ++ [n]) = mids ++ [n ++ DOTPY].
Proof. unfold with_py. rewrite removelast_last, last_last. reflexivity. Qed.

Lemma isvalid_cons d n rest : rest <> [] ->
  isvalid fs d (n :: rest) = is_package fs (d ++ [n]) && isvalid fs (d ++ [n]) rest.
Proof. destruct rest; [contradiction|]. intros _. rewrite <- exists_init_is_package, <- app_assoc. reflexivity. Qed.

(* check_dpath is not recursive (it joins the whole path and tests _isvalid afterwards); this gives it the recursion
   of resolve *)
Lemma check_dpath_cons d n m rest :
  check_dpath fs d (n :: m :: rest) =
  if is_package fs (d ++ [n]) then check_dpath fs (d ++ [n]) (m :: rest) else None.
Proof.
  unfold check_dpath. rewrite isvalid_cons, with_py_cons by discriminate. destruct (is_package fs (d ++ [n])).
  - rewrite <- !app_assoc. reflexivity.
  - rewrite !andb_false_r. reflexivity.
Qed.

Theorem check_dpath_resolve parts : forall d, check_dpath fs d parts = resolve fs d parts.
Proof.
  induction parts as [|n rest IH]; intros d; [reflexivity|].
  destruct rest as [|m rest].
  - unfold check_dpath. cbn [isvalid resolve]. rewrite !andb_true_r, exists_and_init.
    change (with_py [n]) with [n ++ DOTPY].
    destruct (is_package fs (d ++ [n])); reflexivity.
  - rewrite check_dpath_cons. cbn [resolve]. rewrite IH. reflexivity.
Qed.

Theorem syspath_resolve roots parts :
  syspath_modname_to_modpath fs roots parts = resolve_roots fs roots parts.
Proof.
  induction roots as [|d r IH]; simpl; [reflexivity|]. rewrite check_dpath_resolve, IH. reflexivity.
Qed.

Definition NoInitName (parts : list name) : Prop := forall n, In n parts -> n <> INIT /\ n ++ DOTPY <> INIT.

Lemma resolve_shape parts : forall d p, resolve fs d parts = Some p ->
  (p = d ++ parts /\ is_package fs p = true \/ p = d ++ with_py parts /\ isfile fs p = true) /\
  isvalid fs d parts = true.
Proof.
  induction parts as [|n rest IH]; intros d p H; [discriminate|].
  destruct rest as [|m rest].
  - cbn [resolve] in H. split; [|reflexivity].
    destruct (is_package fs (d ++ [n])) eqn:P.
    + inversion H; subst. left. split; [reflexivity | exact P].
    + destruct (isfile fs (d ++ [n ++ DOTPY])) eqn:F; [|discriminate]. inversion H; subst.
      right. split; [reflexivity | exact F].
  - cbn [resolve] in H. destruct (is_package fs (d ++ [n])) eqn:P; [|discriminate].
    destruct (IH (d ++ [n]) p H) as [S V]. split.
    + rewrite with_py_cons. destruct S as [[A B]|[A B]]; [left|right]; (split; [|exact B]);
        rewrite A, <- app_assoc; reflexivity.
    + rewrite isvalid_cons, P, V by discriminate. reflexivity.
Qed.

Lemma climb_unfold rd rel :
  climb fs rd rel =
  if exists_ fs (rev rd ++ [INIT]) then match rd with [] => None | x :: up => climb fs up (x :: rel) end
  else Some (rev rd, rel).
Proof. destruct rd; reflexivity. Qed.

Lemma climb_spec mids : forall base rel,
  (forall k, (0 < k <= length mids)%nat -> exists_ fs ((base ++ firstn k mids) ++ [INIT]) = true) ->
  exists_ fs (base ++ [INIT]) = false ->
  climb fs (rev (base ++ mids)) rel = Some (base, mids ++ rel).
Proof.
  induction mids as [|m ms IH] using rev_ind; intros base rel Hall Hroot; rewrite climb_unfold, rev_involutive.
  - rewrite app_nil_r, Hroot. reflexivity.
  - specialize (Hall (length (ms ++ [m]))) as E. rewrite firstn_all in E. rewrite E by (rewrite app_length; simpl; lia).
    rewrite app_assoc, rev_unit, IH, <- app_assoc; [reflexivity | | exact Hroot].
    intros k Hk. specialize (Hall k). rewrite firstn_app in Hall.
    replace (k - length ms)%nat with 0%nat in Hall by lia. rewrite app_nil_r in Hall.
    apply Hall. rewrite app_length. simpl. lia.
Qed.

Lemma isvalid_prefixes mids : forall d x, isvalid fs d (mids ++ [x]) = true ->
  forall k, (0 < k <= length mids)%nat -> exists_ fs ((d ++ firstn k mids) ++ [INIT]) = true.
Proof.
  induction mids as [|m ms IH]; intros d x H k Hk; [simpl in Hk; lia|].
  cbn [app] in H. rewrite isvalid_cons, <- exists_init_is_package in H by (destruct ms; discriminate).
  apply andb_true_iff in H as [H1 H2].
  destruct k as [|[|k]]; [lia | exact H1 |].
  specialize (IH (d ++ [m]) x H2 (S k)). rewrite <- (app_assoc d [m]) in IH. apply IH. simpl in Hk. lia.
Qed.

(* split_modpath returns the directory that must be on the search path and the path relative to it *)
Theorem split_modpath_spec base mids fname :
  (forall k, (0 < k <= length mids)%nat -> exists_ fs ((base ++ firstn k mids) ++ [INIT]) = true) ->
  exists_ fs (base ++ [INIT]) = false ->
  split_modpath fs (base ++ mids ++ [fname]) = Some (base, mids ++ [fname]).
Proof.
  intros H1 H2. unfold split_modpath. rewrite app_assoc, rev_app_distr. simpl.
  apply climb_spec; assumption.
Qed.

Lemma climb_result rd : forall rel d r, climb fs rd rel = Some (d, r) ->
  d ++ r = rev rd ++ rel /\ exists_ fs (d ++ [INIT]) = false.
Proof.
  induction rd as [|x up IH]; intros rel d r H; rewrite climb_unfold in H.
  - destruct (exists_ fs (rev [] ++ [INIT])) eqn:E; [discriminate|]. injection H as <- <-. auto.
  - destruct (exists_ fs (rev (x :: up) ++ [INIT])) eqn:E.
    + destruct (IH _ _ _ H) as [A B]. split; [|exact B]. rewrite A. simpl. rewrite <- app_assoc. reflexivity.
    + injection H as <- <-. auto.
Qed.

Lemma climb_stops rd : forall rel d r, climb fs rd rel = Some (d, r) -> exists_ fs (d ++ [INIT]) = false.
Proof. intros rel d r H. exact (proj2 (climb_result rd rel d r H)). Qed.

(* the parts for which the path determines the name: strip_py takes the suffix off a part that ends in .py, and
   normalize_modpath hides a last component __init__.py *)
Definition PlainNames (parts : list name) : Prop :=
  forall n, In n parts -> n <> INIT /\ n ++ DOTPY <> INIT /\ ends_with DOTPY n = false.

Lemma strip_py_add n : strip_py (n ++ DOTPY) = n.
Proof.
  unfold strip_py. assert (E : ends_with DOTPY (n ++ DOTPY) = true) by (apply ends_with_spec; exists n; reflexivity).
  rewrite E. rewrite app_length. simpl. replace (length n + 3 - 3)%nat with (length n) by lia.
  apply firstn_app_exact.
Qed.

Lemma normalize_plain p : basename p <> INIT -> normalize_modpath fs true false p = p.
Proof.
  intros H. unfold normalize_modpath. destruct (eqb_str (basename p) INIT) eqn:E; [apply eqb_str_spec in E; contradiction | reflexivity].
Qed.

Theorem roundtrip root parts p :
  resolve fs root parts = Some p -> exists_ fs (root ++ [INIT]) = false -> PlainNames parts ->
  modpath_to_modname fs p = Some parts.
Proof.
  destruct parts as [|lst mids _] using rev_ind; intros R Hroot PN; [discriminate|].
  destruct (resolve_shape _ root p R) as [S V].
  destruct (PN lst) as (N1 & N2 & N3); [apply in_or_app; right; left; reflexivity|].
  (* package directory or .py file: the last component f is not __init__.py and strips to the last part *)
  assert (F : exists f, p = root ++ mids ++ [f] /\ f <> INIT /\ strip_py f = lst).
  { destruct S as [[-> _]|[-> _]].
    - exists lst. unfold strip_py. rewrite N3. auto.
    - exists (lst ++ DOTPY). rewrite with_py_snoc, strip_py_add. auto. }
  destruct F as (f & -> & Nf & Sf). unfold modpath_to_modname.
  rewrite normalize_plain by (unfold basename; rewrite app_assoc, last_last; exact Nf).
  rewrite (split_modpath_spec root mids f (isvalid_prefixes mids root lst V) Hroot).
  rewrite removelast_last, last_last, Sf. reflexivity.
Qed.

End FS.
