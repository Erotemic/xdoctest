(* CliOptionsProofs.v — the dict _populate_from_cli makes of a parsed option list, read key by key (populate_get);
   C04. *)
From XD Require Import Model.CliOptions Proofs.BaseFacts Proofs.DirectiveProofs.
Open Scope N_scope.

Definition fill (d : dict) (opts : list (str * bool)) : dict :=
  fold_left (fun d o => dset (fst o) (VBool (snd o)) d) opts d.

(* the value recorded for a name is the sign of its LAST mention; a name that is not mentioned keeps what it had *)
Fixpoint last_mention (k : str) (opts : list (str * bool)) : option bool :=
  match opts with
  | [] => None
  | (k', b) :: rest => match last_mention k rest with
                       | Some b' => Some b'
                       | None => if eqb_str k k' then Some b else None
                       end
  end.

Lemma fill_get d opts k :
  dget k (fill d opts) = match last_mention k opts with Some b => Some (VBool b) | None => dget k d end.
Proof.
  revert d. induction opts as [|[k' b] rest IH]; intros d; [reflexivity|].
  change (fill d ((k', b) :: rest)) with (fill (dset k' (VBool b) d) rest). rewrite IH, dget_dset. cbn [last_mention].
  destruct (last_mention k rest), (eqb_str k k'); reflexivity.
Qed.

Theorem populate_get opts k :
  dget k (populate_from_cli opts) = match last_mention k opts with Some b => Some (VBool b) | None => None end.
Proof. unfold populate_from_cli. apply (fill_get [] opts k). Qed.

Lemma last_mention_in opts k b : last_mention k opts = Some b -> In (k, b) opts.
Proof.
  induction opts as [|[k' b'] rest IH]; [discriminate|]. cbn [last_mention].
  destruct (last_mention k rest) as [x|] eqn:L.
  - intros [= ->]. right. apply IH. reflexivity.
  - destruct (eqb_str k k') eqn:E; [|discriminate]. apply eqb_str_spec in E. intros [= ->]. subst k'. left. reflexivity.
Qed.

Lemma last_mention_nodup opts k b : NoDup (map fst opts) -> In (k, b) opts -> last_mention k opts = Some b.
Proof.
  induction opts as [|[k0 b0] rest IH]; [intros _ []|]. cbn [map fst last_mention].
  intros ND [[= -> ->]|H]; apply NoDup_cons_iff in ND as [Hn ND].
  - destruct (last_mention k rest) as [x|] eqn:L; [|rewrite eqb_str_refl; reflexivity].
    exfalso. apply Hn. apply last_mention_in, (in_map fst) in L. exact L.
  - rewrite (IH ND H). reflexivity.
Qed.

Lemma fill_Forall (P : str * value -> Prop) opts : (forall k b, In (k, b) opts -> P (k, VBool b)) ->
  forall d, Forall P d -> Forall P (fill d opts).
Proof.
  intros H. apply fold_left_inv. intros d [k b] Hin F. apply dset_Forall; [apply H; exact Hin | exact F].
Qed.

(* non-vacuity on '+SKIP,+IGNORE_WHITESPACE,-ELLIPSIS': all three options are recorded, not only the last *)
Example populate_example :
  let opts := [(K_SKIP, true); (K_IGNORE_WHITESPACE, true); (K_ELLIPSIS, false)] in
  NoDup (map fst opts) /\ (forall b, ~ In (K_REQUIRES, b) opts) /\
  populate_from_cli opts = [(K_SKIP, VBool true); (K_IGNORE_WHITESPACE, VBool true); (K_ELLIPSIS, VBool false)].
Proof.
  split; [|split; [|vm_compute; reflexivity]].
  - repeat constructor; simpl; intros H; repeat (destruct H as [H|H]; [discriminate H|]); exact H.
  - intros b H. simpl in H. repeat (destruct H as [H|H]; [discriminate H|]). exact H.
Qed.
