(* RunnerProofs.v — _run_examples: the loop keeps every summary and aborts only on an escaped exception (C09);
   tallies, failed list, exit status, gathering (C10), read off the closed form run_examples_map. *)
From XD Require Import Model.Runner Proofs.BaseFacts.
Open Scope N_scope.

Definition ExactlyOne (sm : summary) : Prop :=
  (s_passed sm = true /\ s_failed sm = false /\ s_skipped sm = false) \/
  (s_passed sm = false /\ s_failed sm = true /\ s_skipped sm = false) \/
  (s_passed sm = false /\ s_failed sm = false /\ s_skipped sm = true).

Lemma counts_partition l : Forall ExactlyOne l ->
  (count_b s_passed l + count_b s_failed l + count_b s_skipped l = length l)%nat.
Proof.
  unfold count_b. induction 1 as [|sm l H _ IH]; simpl; [reflexivity|].
  destruct H as [(A & B & C) | [(A & B & C) | (A & B & C)]]; rewrite A, B, C; simpl; lia.
Qed.

(* C10's specification of the `failed` list; positions are counted from i *)
Fixpoint positions (f : summary -> bool) (l : list summary) (i : nat) : list nat :=
  match l with
  | [] => []
  | sm :: r => if f sm then i :: positions f r (S i) else positions f r (S i)
  end.

Lemma failed_positions_spec l : Forall ExactlyOne l -> forall i,
  failed_positions l i = positions s_failed l i.
Proof.
  induction 1 as [|sm l H _ IH]; intros i; simpl; [reflexivity|].
  destruct H as [(A & B & C) | [(A & B & C) | (A & B & C)]]; rewrite A, B, C; simpl; rewrite IH; reflexivity.
Qed.

Lemma positions_length f l i : length (positions f l i) = count_b f l.
Proof.
  unfold count_b. revert i. induction l as [|sm l IH]; intros i; simpl; [reflexivity|].
  destruct (f sm); simpl; rewrite IH; reflexivity.
Qed.

Lemma positions_in_from f l : forall i j, In j (positions f l i) <->
  exists k sm, nth_error l k = Some sm /\ f sm = true /\ j = (i + k)%nat.
Proof. apply (positions_in f (positions f)); reflexivity. Qed.

Definition AllReturn (outs : list run_out) : Prop := forall o, In o outs -> exists sm, o = RO_summary sm.

Fixpoint summaries_of (outs : list run_out) : list summary :=
  match outs with
  | RO_summary sm :: r => sm :: summaries_of r
  | _ :: r => summaries_of r
  | [] => []
  end.

Lemma AllReturn_map outs : AllReturn outs -> exists l, outs = map RO_summary l.
Proof.
  induction outs as [|o outs IH]; intros H; [exists []; reflexivity|].
  destruct (H o (or_introl eq_refl)) as [sm ->].
  destruct IH as [l ->]; [intros o' Ho'; apply H; right; exact Ho'|].
  exists (sm :: l). reflexivity.
Qed.

Lemma summaries_of_map l : summaries_of (map RO_summary l) = l.
Proof. induction l as [|sm l IH]; simpl; [|rewrite IH]; reflexivity. Qed.

Lemma run_loop_map l : run_loop (map RO_summary l) = (l, LE_done).
Proof. induction l as [|sm l IH]; simpl; [|rewrite IH]; reflexivity. Qed.

Lemma run_examples_map l :
  run_examples (map RO_summary l) =
  Some (mkRunSummary (length l) (count_b s_passed l) (count_b s_failed l) (count_b s_skipped l) (failed_positions l 0)).
Proof. unfold run_examples. rewrite run_loop_map, map_length. reflexivity. Qed.

(* also when the loop is cut short (escaped exception, KeyboardInterrupt) *)
Lemma run_loop_prefix outs : forall l e, run_loop outs = (l, e) ->
  exists k, (k <= length outs)%nat /\ map RO_summary l = firstn k outs /\
            (e = LE_done -> k = length outs).
Proof.
  induction outs as [|[sm| |] outs IH]; intros l e H; simpl in H.
  - injection H as <- <-. exists O. split; [apply le_n|]. split; reflexivity.
  - destruct (run_loop outs) as [l' e'] eqn:R. injection H as <- <-.
    destruct (IH l' e' eq_refl) as (k & A & B & C).
    exists (S k). simpl. rewrite B. split; [apply le_n_S, A|]. split; [reflexivity|]. intros X. rewrite (C X). reflexivity.
  - injection H as <- <-. exists O. split; [apply Nat.le_0_l|]. split; [reflexivity | discriminate].
  - injection H as <- <-. exists O. split; [apply Nat.le_0_l|]. split; [reflexivity | discriminate].
Qed.

Lemma run_loop_abort_iff outs : snd (run_loop outs) = LE_abort <->
  exists k, nth_error outs k = Some RO_raised /\ forall j, (j < k)%nat -> exists sm, nth_error outs j = Some (RO_summary sm).
Proof.
  induction outs as [|[sm| |] outs IH]; simpl.
  - split; [discriminate | intros ([|k] & H & _); discriminate].
  - destruct (run_loop outs) as [l e]; simpl in *. rewrite IH. split.
    + intros (k & A & B). exists (S k). split; [exact A|]. intros [|j] Hj; [exists sm; reflexivity | apply B; lia].
    + intros ([|k] & A & B); [discriminate|]. exists k. split; [exact A|]. intros j Hj. apply (B (S j)). lia.
  - split; [intros _; exists O; split; [reflexivity | intros j Hj; lia] | reflexivity].
  - split; [discriminate|]. intros ([|k] & A & B); [discriminate|]. destruct (B O) as [sm X]; [lia | discriminate].
Qed.

Lemma count_pos_iff f l : (0 < count_b f l)%nat <-> exists sm, In sm l /\ f sm = true.
Proof.
  unfold count_b. split.
  - intros H. destruct (filter f l) as [|sm r] eqn:E; [simpl in H; lia|].
    exists sm. apply filter_In. rewrite E. left. reflexivity.
  - intros (sm & A & B). assert (X : In sm (filter f l)) by (apply filter_In; auto).
    destruct (filter f l); [contradiction | simpl; lia].
Qed.

Theorem exit_status_iff outs rs : run_examples outs = Some rs -> AllReturn outs ->
  (exit_status rs = 1%nat <-> exists sm, In sm (summaries_of outs) /\ s_failed sm = true) /\
  (exit_status rs = 0%nat \/ exit_status rs = 1%nat).
Proof.
  intros H AR. destruct (AllReturn_map outs AR) as [l ->]. rewrite summaries_of_map.
  rewrite run_examples_map in H. injection H as <-. unfold exit_status; simpl. split.
  - rewrite <- count_pos_iff. destruct (Nat.ltb_spec 0 (count_b s_failed l)); split; try lia; discriminate.
  - destruct (Nat.ltb 0 _); auto.
Qed.

Lemma run_examples_none outs : run_examples outs = None <-> snd (run_loop outs) = LE_abort.
Proof. unfold run_examples. destruct (run_loop outs) as [l []]; simpl; split; congruence. Qed.

Lemma filter_NoDup_map {A B} (f : A -> B) (p : A -> bool) l : NoDup (map f l) -> NoDup (map f (filter p l)).
Proof.
  induction l as [|x l IH]; simpl; intros H; [constructor|]. inversion H; subst.
  destruct (p x); simpl; [constructor|]; auto.
  intro X. apply H2. apply in_map_iff in X. destruct X as (y & Hy & Hf). apply filter_In in Hf.
  apply in_map_iff. exists y. tauto.
Qed.

Lemma filter_none {A} (p : A -> bool) l : (forall x, In x l -> p x = false) -> filter p l = [].
Proof.
  induction l as [|x l IH]; intros H; simpl; [reflexivity|].
  rewrite (H x (or_introl eq_refl)). apply IH. intros y Hy. apply H. right. exact Hy.
Qed.

Lemma filter_unique_key {A B} (key : A -> B) (l : list A) (p : A -> bool) e0 :
  NoDup (map key l) -> In e0 l -> p e0 = true ->
  (forall e, In e l -> p e = true -> key e = key e0) ->
  filter p l = [e0].
Proof.
  intros ND Hin P0 U. apply in_split in Hin. destruct Hin as (l1 & l2 & ->).
  rewrite map_app in ND. apply NoDup_remove_2 in ND. rewrite <- map_app in ND.
  assert (N : forall e, In e (l1 ++ l2) -> p e = false).
  { intros e He. destruct (p e) eqn:E; [|reflexivity]. exfalso. apply ND.
    rewrite <- (U e); [apply in_map; exact He | | exact E].
    apply in_app_or in He. apply in_or_app. simpl. tauto. }
  rewrite filter_app. simpl. rewrite P0, !filter_none; [reflexivity | |]; intros e He; apply N, in_or_app; auto.
Qed.
