(* IsolationProofs.v — the process-wide default directive state is never written, whatever the history of runs: each
   run works on cells it allocated itself (C11). *)
From XD Require Import Model.Isolation Proofs.BaseFacts.
Open Scope N_scope.

(* the cells a dict points to lie in [lo, hi) *)
Definition vrange (lo hi : nat) (kv : str * hvalue) : Prop :=
  match snd kv with HSet c => (lo <= c < hi)%nat | HBool _ => True end.
Definition InRange (lo hi : nat) (d : hdict) : Prop := Forall (vrange lo hi) d.

Lemma InRange_weaken lo lo' hi hi' d : (lo' <= lo)%nat -> (hi <= hi')%nat -> InRange lo hi d -> InRange lo' hi' d.
Proof.
  intros L H. unfold InRange. apply Forall_impl. intros [k v]. unfold vrange. simpl. destruct v; [tauto | lia].
Qed.

Lemma hset_range lo hi k v d : InRange lo hi d -> vrange lo hi (k, v) -> InRange lo hi (hset k v d).
Proof.
  intros H V. induction H as [|[k' v'] d Hx Hd IH]; simpl; [repeat constructor; exact V|].
  destruct (eqb_str k k'); constructor; assumption.
Qed.

Lemma hget_range lo hi k d c : InRange lo hi d -> hget k d = Some (HSet c) -> (lo <= c < hi)%nat.
Proof.
  induction 1 as [|[k' v'] d V _ IH]; simpl; [discriminate|].
  destruct (eqb_str k k'); [intros [= ->]; exact V | exact IH].
Qed.

Lemma hwrite_length h c v : length (hwrite h c v) = length h.
Proof. revert c. induction h as [|x h IH]; intros c; simpl; [reflexivity|]. destruct c; simpl; [reflexivity | rewrite IH; reflexivity]. Qed.

Lemma hwrite_firstn h c v n : (n <= c)%nat -> firstn n (hwrite h c v) = firstn n h.
Proof.
  revert c n. induction h as [|x h IH]; intros c n H; simpl; [reflexivity|].
  destruct c; simpl.
  - assert (n = O) by lia. subst. reflexivity.
  - destruct n; simpl; [reflexivity|]. rewrite IH by lia. reflexivity.
Qed.

Lemma hread_app_new h v : hread (h ++ [v]) (length h) = v.
Proof. apply nth_middle. Qed.

Lemma hwrite_app_new h v w : hwrite (h ++ [v]) (length h) w = h ++ [w].
Proof. induction h as [|x h IH]; simpl; [reflexivity | rewrite IH; reflexivity]. Qed.

Lemma halloc_firstn h v n : (n <= length h)%nat -> firstn n (fst (halloc h v)) = firstn n h.
Proof. intros H. unfold halloc. simpl. rewrite firstn_app. replace (n - length h)%nat with O by lia. simpl. rewrite app_nil_r. reflexivity. Qed.

Lemma hread_prefix h h' c : firstn (length h) h' = h -> (c < length h)%nat -> hread h' c = hread h c.
Proof. intros P L. unfold hread. rewrite <- (nth_firstn_lt h' (length h) c [] L), P. reflexivity. Qed.

(* firstn (length h) h' = h ("h is a prefix of h'") is how "no existing cell is written" is stated throughout *)
Lemma deepcopy_spec d : forall h h' d',
  deepcopy h d = (h', d') -> firstn (length h) h' = h /\ InRange (length h) (length h') d'.
Proof.
  induction d as [|[k v] r IH]; intros h h' d' H; simpl in H.
  - inversion H; subst. split; [apply firstn_all | constructor].
  - destruct v as [b|c].
    + destruct (deepcopy h r) as [h1 r1] eqn:E. inversion H; subst.
      destruct (IH _ _ _ E) as (A & C). split; [exact A | constructor; [exact I | exact C]].
    + unfold halloc in H. destruct (deepcopy (h ++ [hread h c]) r) as [h2 r2] eqn:E. inversion H; subst.
      destruct (IH _ _ _ E) as (A & C). pose proof (prefix_length _ _ A) as L. split.
      * eapply prefix_trans; [apply firstn_app_exact | exact A].
      * rewrite app_length in *. simpl in *.
        constructor; [unfold vrange; simpl; lia | eapply InRange_weaken; [| |exact C]; lia].
Qed.

(* all sets of the state live in cells >= n *)
Record Owns (n : nat) (h : heap) (st : hstate) : Prop := mkOwns {
  ow_len : (n <= length h)%nat;
  ow_global : InRange n (length h) (hs_global st);
  ow_inline : InRange n (length h) (hs_inline st)
}.

Lemma hs_init_owns h defaults ds h' st : hs_init h defaults ds = (h', st) ->
  firstn (length h) h' = h /\ Owns (length h) h' st.
Proof.
  unfold hs_init. destruct (deepcopy h defaults) as [h1 g] eqn:E. intros H. inversion H; subst.
  destruct (deepcopy_spec _ _ _ _ E) as (A & C). split; [exact A|].
  constructor; simpl; [exact (prefix_length _ _ A) | | constructor].
  apply fold_left_inv; [intros g' kv _ G; apply hset_range; [exact G | exact I] | exact C].
Qed.

(* the heap side of DirectiveProofs.rs_put *)
Definition hs_mine (inl : bool) (st : hstate) : hdict := if inl then hs_inline st else hs_global st.
Definition hs_put (inl : bool) (k : str) (v : hvalue) (st : hstate) : hstate :=
  if inl then mkHS (hs_global st) (hset k v (hs_inline st)) else mkHS (hset k v (hs_global st)) (hs_inline st).

Lemma happly_assign inl h st k b : happly h st (HE_assign inl k b) = Some (h, hs_put inl k (HBool b) st).
Proof. destruct inl; reflexivity. Qed.

(* seeding the overlay with a copy of the persistent set and operating on the copy makes one new cell with the result *)
Lemma happly_set inl h st add k x : happly h st (HE_set inl add k x) =
  match hget k (hs_mine inl st) with
  | Some (HSet c) => Some (hwrite h c (set_op add x (hread h c)), st)
  | Some (HBool _) => None
  | None => match (if inl then hget k (hs_global st) else None) with
            | Some (HSet c) => Some (h ++ [set_op add x (hread h c)], hs_put true k (HSet (length h)) st)
            | _ => None
            end
  end.
Proof.
  destruct st as [g i], inl; cbn [happly hs_mine hs_put hs_global hs_inline halloc].
  - destruct (hget k i) as [[b|c]|]; try reflexivity. destruct (hget k g) as [[b|c]|]; try reflexivity.
    rewrite hread_app_new, hwrite_app_new. reflexivity.
  - destruct (hget k g) as [[b|c]|]; reflexivity.
Qed.

Lemma Owns_put inl n h k v st : Owns n h st -> vrange n (length h) (k, v) -> Owns n h (hs_put inl k v st).
Proof.
  intros [L G J] V. destruct inl; constructor; cbn [hs_put hs_global hs_inline]; try assumption; apply hset_range; assumption.
Qed.

Lemma Owns_grow n h h' st : (length h <= length h')%nat -> Owns n h st -> Owns n h' st.
Proof.
  intros H [L G J]. constructor; [lia | |]; (apply (InRange_weaken n n (length h)); [apply le_n | exact H | assumption]).
Qed.

Lemma happly_owns n h st e h' st' : Owns n h st -> happly h st e = Some (h', st') ->
  firstn n h' = firstn n h /\ Owns n h' st'.
Proof.
  intros O H. destruct e as [inl k b | inl add k x].
  - rewrite happly_assign in H. injection H as <- <-. split; [reflexivity | apply Owns_put; [exact O | exact I]].
  - rewrite happly_set in H. destruct (hget k (hs_mine inl st)) as [[b|c]|] eqn:G; [discriminate | |].
    + injection H as <- <-.
      assert (R : (n <= c < length h)%nat) by (apply (hget_range _ _ k (hs_mine inl st)); [destruct inl; apply O | exact G]).
      split; [apply hwrite_firstn; lia | apply (Owns_grow n h); [rewrite hwrite_length; lia | exact O]].
    + destruct inl; [|discriminate]. destruct (hget k (hs_global st)) as [[b|c]|]; try discriminate.
      injection H as <- <-. pose proof (ow_len _ _ _ O) as L.
      pose proof (last_length h (set_op add x (hread h c))) as L1.
      split; [exact (halloc_firstn h _ n L) | apply (Owns_put true); [|unfold vrange; simpl; lia]].
      apply (Owns_grow n h); [lia | exact O].
Qed.

Lemma happly_all_owns n es : forall h st h' st', Owns n h st -> happly_all h st es = Some (h', st') ->
  firstn n h' = firstn n h /\ Owns n h' st'.
Proof.
  induction es as [|e r IH]; intros h st h' st' O H; simpl in H.
  - inversion H; subst. split; [reflexivity | exact O].
  - destruct (happly h st e) as [[h1 st1]|] eqn:E; [|discriminate].
    destruct (happly_owns _ _ _ _ _ _ O E) as [A B]. destruct (IH _ _ _ _ B H) as [C D].
    split; [rewrite C; exact A | exact D].
Qed.

Lemma hs_updates_owns n parts : forall h st, Owns n h st -> firstn n (hs_updates h st parts) = firstn n h.
Proof.
  induction parts as [|es r IH]; intros h st O; simpl; [reflexivity|].
  destruct (hs_update h st es) as [[h' st']|] eqn:U; [|reflexivity].
  unfold hs_update in U.
  assert (O0 : Owns n h (mkHS (hs_global st) [])) by (destruct O; constructor; simpl; try assumption; constructor).
  destruct (happly_all_owns _ _ _ _ _ _ O0 U) as [A B]. rewrite (IH _ _ B). exact A.
Qed.

Theorem run_preserves_heap h defaults ds parts :
  firstn (length h) (run_directives h defaults ds parts) = h.
Proof.
  unfold run_directives. destruct (hs_init h defaults ds) as [h' st] eqn:E.
  destruct (hs_init_owns _ _ _ _ _ E) as [A O]. rewrite (hs_updates_owns _ _ _ _ O). exact A.
Qed.

(* any history: any order, repetitions, any directives, raising updates included *)
Theorem defaults_never_written hist : forall h defaults,
  firstn (length h) (exec_history h defaults hist) = h.
Proof.
  unfold exec_history. induction hist as [|r rs IH]; intros h defaults; simpl; [apply firstn_all|].
  eapply prefix_trans; [apply run_preserves_heap | apply IH].
Qed.

(* hence what a new RuntimeState starts from does not depend on the history *)
Corollary default_contents_stable hist h defaults c :
  (c < length h)%nat -> hread (exec_history h defaults hist) c = hread h c.
Proof. apply hread_prefix. apply defaults_never_written. Qed.
