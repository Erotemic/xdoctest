(* RunDecide.v — RunLoop.step in closed form (step_running and step_frozen are the only places that unfold it); its
   decision table; failed_line_defined. *)
From XD Require Import Model.RunLoop Proofs.RunWant.
Open Scope N_scope.

(* no failure: graceful exit; SystemExit / KeyboardInterrupt; no doctest frame in the traceback *)
Inductive ending := Exit | Base | NoFrame.

Definition end_of (x : ending) : run_end :=
  match x with Exit => E_break | Base => E_base | NoFrame => E_no_frame end.

(* unmatched: outputs no want has consumed; compared: want was compared with output (joins r_checked) *)
Inductive part_effect :=
| Go (unmatched : list str) (compared : bool)
| Fail (f : failure) (compared : bool)
| Stop (x : ending)
| NoCompile.                                    (* compile() raised, exec not reached *)

Definition part_effect_of (fl : flags) (want : option str) (um : list str) (o : outcome) : part_effect :=
  match o with
  | O_compile_error => NoCompile
  | O_existing_loop => Fail F_existing_loop false
  | O_base _ => Stop Base
  | O_exit _ => Stop Exit
  | O_ok out ev =>
      match want with
      | None => Go (um ++ [out]) false
      | Some w =>
          if IGNORE_WANT fl then Go [] false
          else match part_check fl w um out ev with
               | GW_ok => Go [] true
               | GW_gotwant => Fail F_gotwant true
               | GW_extract_repr => Fail F_extract_repr true
               | GW_repr_escapes => Fail F_exception true
               end
      end
  | O_raise out last has_frame =>
      let as_exception := if has_frame then Fail F_exception false else Stop NoFrame in
      match want with
      | None => as_exception
      | Some w => match check_exception fl last w with
                  | None => as_exception
                  | Some true => Go [] false
                  | Some false => Fail F_gotwant false
                  end
      end
  end.

Lemma part_effect_stop fl want um o x : part_effect_of fl want um o = Stop x ->
  match o with
  | O_base _ => x = Base
  | O_exit _ => x = Exit
  | O_raise _ _ false => x = NoFrame
  | _ => False
  end.
Proof.
  destruct o as [out ev|out last [|]|out| | |out]; cbn; try congruence.
  - destruct want; [|discriminate]. destruct (IGNORE_WANT fl); [discriminate|]. destruct (part_check _ _ _ _ _); discriminate.
  - destruct want; [destruct (check_exception _ _ _) as [[|]|]|]; discriminate.
  - destruct want; [destruct (check_exception _ _ _) as [[|]|]|]; congruence.
Qed.

Definition out_of (o : outcome) : str :=
  match o with
  | O_ok out _ | O_raise out _ _ | O_exit out | O_base out => out
  | O_compile_error | O_existing_loop => []
  end.

Definition fail_end (cfg : config) (f : failure) : run_end :=
  match c_on_error cfg with OE_raise => E_raise f | OE_return => E_break end.

Lemma fail_end_stops cfg f : fail_end cfg f <> E_running.
Proof. unfold fail_end. destruct (c_on_error cfg); discriminate. Qed.

Lemma end_of_stops x : end_of x <> E_running.
Proof. destruct x; discriminate. Qed.

(* the state after part i ran under rs, wrote out and had the effect e *)
Definition after (cfg : config) (s : rstate) (rs : runstate) (i : nat) (out : str) (e : part_effect) : rstate :=
  mkR rs
      (match e with Go um _ => um | _ => r_unmatched s end)
      (r_skipped s)
      (match e with NoCompile => r_executed s | _ => r_executed s ++ [i] end)
      (match e with Go _ true | Fail _ true => r_checked s ++ [i] | _ => r_checked s end)
      (r_logged s ++ [(i, out)])
      (match e with
       | Fail f _ => Some (Some i, f)
       | NoCompile => Some (Some i, F_compile)
       | _ => r_failed s
       end)
      true
      (match e with
       | Go _ _ => E_running
       | Fail f _ => fail_end cfg f
       | NoCompile => fail_end cfg F_compile
       | Stop x => end_of x
       end).

(* check_exception on a traceback want with message msg; _strip_exception_details keeps the bare exception type name *)
Definition ExcMatches (fl : flags) (last msg : str) : Prop :=
  check_output fl last msg = true \/
  (IGNORE_EXCEPTION_DETAIL fl = true /\
   check_output fl (strip_exception_details last) (strip_exception_details msg) = true).

Lemma check_exception_some fl last want msg : extract_exc_want want = Some msg ->
  exists b, check_exception fl last want = Some b /\ (b = true <-> ExcMatches fl last msg).
Proof.
  intros X. unfold check_exception, check_exception_cb, ExcMatches. unfold extract_exc_want in X. rewrite X.
  destruct (check_output fl last msg); [exists true; tauto|].
  destruct (IGNORE_EXCEPTION_DETAIL fl); eexists; (split; [reflexivity|]); intuition congruence.
Qed.

Lemma check_exception_spec fl last want msg :
  extract_exc_want want = Some msg ->
  (check_exception fl last want = Some true <-> ExcMatches fl last msg) /\
  (check_exception fl last want = Some false <-> ~ ExcMatches fl last msg).
Proof.
  intros X. destruct (check_exception_some fl last want msg X) as (b & -> & Hb).
  destruct b; intuition congruence.
Qed.

Section Decide.
Variable requires_met : str -> res bool.
Variable cfg : config.
Variable oc : nat -> outcome.
Notation step' := (step requires_met cfg oc).

(* p is handed to compile/exec under rs' *)
Record Ready (s : rstate) (p : part) (rs' : runstate) : Prop := mkReady {
  rd_running : r_end s = E_running;
  rd_update : part_update requires_met (r_rs s) p = UOk rs';
  rd_enabled : rs_skips rs' || negb (has_any_code p) = false;
  rd_import : negb (r_did_import s) && negb (c_import_ok cfg) = false
}.

Inductive step_from (s : rstate) (i : nat) (p : part) : rstate -> Prop :=
| sf_need q :
    part_update requires_met (r_rs s) p = UNeed q ->
    step_from s i p (set_end s (E_update_need q))
| sf_directive e :
    part_update requires_met (r_rs s) p = UErr e ->
    step_from s i p (fail_at cfg s (Some i) F_directive)
| sf_skip rs' :
    part_update requires_met (r_rs s) p = UOk rs' -> rs_skips rs' || negb (has_any_code p) = true ->
    step_from s i p (mkR rs' (r_unmatched s) (r_skipped s ++ [i]) (r_executed s) (r_checked s) (r_logged s)
                         (r_failed s) (r_did_import s) E_running)
| sf_import rs' :
    part_update requires_met (r_rs s) p = UOk rs' -> rs_skips rs' || negb (has_any_code p) = false ->
    negb (r_did_import s) && negb (c_import_ok cfg) = true ->
    step_from s i p (mkR rs' (r_unmatched s) (r_skipped s) (r_executed s) (r_checked s) (r_logged s)
                         (Some (None, F_import)) false
                         (match c_on_error cfg with OE_raise => E_raise F_import | OE_return => E_import_return end))
| sf_exec rs' :
    Ready s p rs' ->
    step_from s i p (after cfg s rs' i (out_of (oc i))
                           (part_effect_of (flags_of rs') (part_want p) (r_unmatched s) (oc i))).

Lemma step_running s i p : r_end s = E_running -> step_from s i p (step' s i p).
Proof.
  intros E. unfold step. rewrite E.
  (* reduce the projections of intermediate states first: every destruct below copies the term *)
  cbn [r_rs r_unmatched r_skipped r_executed r_checked r_logged r_failed r_did_import r_end].
  destruct (part_update requires_met (r_rs s) p) as [rs'|e|q] eqn:U; [|econstructor; eassumption|constructor; assumption].
  destruct (rs_skips rs' || negb (has_any_code p)) eqn:K; [apply sf_skip; assumption|].
  destruct (negb (r_did_import s) && negb (c_import_ok cfg)) eqn:M; [constructor; assumption|].
  generalize (sf_exec s i p rs' (mkReady _ _ _ E U K M)).
  destruct (oc i) as [out ev|out last hf|out| | |out]; cbn [part_effect_of]; try exact (fun X => X).
  - destruct (part_want p); [|exact (fun X => X)].
    destruct (IGNORE_WANT _); [|destruct (part_check _ _ _ _ _)]; exact (fun X => X).
  - destruct (part_want p); [destruct (check_exception _ _ _) as [[|]|]|]; try destruct hf; exact (fun X => X).
Qed.

Lemma step_frozen s i p : r_end s <> E_running -> step' s i p = s.
Proof. unfold step. destruct (r_end s); congruence. Qed.

Lemma step_from_step s i p s' : r_end s = E_running -> step_from s i p s' -> step' s i p = s'.
Proof.
  intros E H. destruct H as [q U|e U|rs U K|rs U K M|rs [_ U K M]];
    destruct (step_running s i p E) as [q' U'|e' U'|rs' U' K'|rs' U' K' M'|rs' [_ U' K' M']]; congruence.
Qed.

Lemma step_ready s i p rs' : Ready s p rs' ->
  step' s i p = after cfg s rs' i (out_of (oc i)) (part_effect_of (flags_of rs') (part_want p) (r_unmatched s) (oc i)).
Proof. intros H. apply step_from_step; [apply H | apply sf_exec, H]. Qed.

Lemma step_no_want s i p rs' out ev :
  Ready s p rs' -> oc i = O_ok out ev -> part_want p = None ->
  let s' := step' s i p in
  r_end s' = E_running /\ r_failed s' = r_failed s /\
  r_unmatched s' = r_unmatched s ++ [out] /\ r_executed s' = r_executed s ++ [i] /\
  r_checked s' = r_checked s /\ r_logged s' = r_logged s ++ [(i, out)].
Proof. intros H O W. rewrite (step_ready _ _ _ _ H), O, W. repeat split. Qed.

Lemma step_want s i p rs' out ev want :
  Ready s p rs' -> oc i = O_ok out ev -> part_want p = Some want ->
  IGNORE_WANT (flags_of rs') = false ->
  let s' := step' s i p in
  r_executed s' = r_executed s ++ [i] /\ r_checked s' = r_checked s ++ [i] /\
  match part_check (flags_of rs') want (r_unmatched s) out ev with
  | GW_ok => r_end s' = E_running /\ r_failed s' = r_failed s /\ r_unmatched s' = []
  | GW_gotwant => r_failed s' = Some (Some i, F_gotwant) /\ r_end s' <> E_running
  | GW_extract_repr => r_failed s' = Some (Some i, F_extract_repr) /\ r_end s' <> E_running
  | GW_repr_escapes => r_failed s' = Some (Some i, F_exception) /\ r_end s' <> E_running
  end.
Proof.
  intros H O W IW. rewrite (step_ready _ _ _ _ H), O, W. cbn [part_effect_of]. rewrite IW.
  destruct (part_check (flags_of rs') want (r_unmatched s) out ev); repeat split; apply fail_end_stops.
Qed.

Lemma step_want_iff s i p rs' out ev want :
  Ready s p rs' -> oc i = O_ok out ev -> part_want p = Some want ->
  IGNORE_WANT (flags_of rs') = false -> ReprSafe ev ->
  let s' := step' s i p in
  ((exists c, Candidate (r_unmatched s) out c /\ CandOK (flags_of rs') want ev c) ->
     r_end s' = E_running /\ r_failed s' = r_failed s /\ r_unmatched s' = []) /\
  (~ (exists c, Candidate (r_unmatched s) out c /\ CandOK (flags_of rs') want ev c) ->
     r_failed s' = Some (Some i, F_gotwant) /\ r_end s' <> E_running).
Proof.
  intros H O W IW Hs s'. destruct (step_want s i p rs' out ev want H O W IW) as (_ & _ & D). fold s' in D.
  rewrite <- (part_check_ok_iff (flags_of rs') want (r_unmatched s) out ev Hs).
  destruct (part_check_safe (flags_of rs') want (r_unmatched s) out ev Hs) as [E|E]; rewrite E in *;
    (split; [intros Y|intros N]; congruence).
Qed.

(* an ignored want ends the window of unmatched output all the same *)
Lemma step_ignore_want s i p rs' out ev want :
  Ready s p rs' -> oc i = O_ok out ev -> part_want p = Some want ->
  IGNORE_WANT (flags_of rs') = true ->
  let s' := step' s i p in
  r_end s' = E_running /\ r_failed s' = r_failed s /\ r_checked s' = r_checked s /\ r_unmatched s' = [].
Proof. intros H O W IW. rewrite (step_ready _ _ _ _ H), O, W. cbn [part_effect_of]. rewrite IW. repeat split. Qed.

Definition fails_with (s' : rstate) (i : nat) (f : failure) : Prop :=
  r_failed s' = Some (Some i, f) /\ r_end s' <> E_running.

Lemma after_fails s rs i out f c : fails_with (after cfg s rs i out (Fail f c)) i f.
Proof. split; [reflexivity | apply fail_end_stops]. Qed.

(* has_frame = true, here and next: otherwise E_no_frame, nothing recorded (part_effect_stop) *)
Lemma step_raise_no_want s i p rs' out last :
  Ready s p rs' -> oc i = O_raise out last true -> part_want p = None ->
  fails_with (step' s i p) i F_exception.
Proof. intros H O W. rewrite (step_ready _ _ _ _ H), O, W. apply after_fails. Qed.

Lemma step_raise_non_traceback s i p rs' out last want :
  Ready s p rs' -> oc i = O_raise out last true -> part_want p = Some want ->
  extract_exc_want want = None ->
  fails_with (step' s i p) i F_exception.
Proof.
  intros H O W X. rewrite (step_ready _ _ _ _ H), O, W. cbn [part_effect_of].
  unfold check_exception, check_exception_cb. unfold extract_exc_want in X. rewrite X. apply after_fails.
Qed.

Lemma step_raise_traceback s i p rs' out last hf want msg :
  Ready s p rs' -> oc i = O_raise out last hf -> part_want p = Some want ->
  extract_exc_want want = Some msg ->
  let s' := step' s i p in
  (ExcMatches (flags_of rs') last msg ->
     r_end s' = E_running /\ r_failed s' = r_failed s /\ r_executed s' = r_executed s ++ [i] /\
     r_unmatched s' = []) /\
  (~ ExcMatches (flags_of rs') last msg -> fails_with s' i F_gotwant).
Proof.
  intros H O W X s'. destruct (check_exception_some (flags_of rs') last want msg X) as (b & CE & Hb).
  subst s'. rewrite (step_ready _ _ _ _ H), O, W. cbn [part_effect_of]. rewrite CE.
  destruct b; split; intros Y.
  - repeat split.
  - contradiction Y. apply Hb. reflexivity.
  - apply Hb in Y. discriminate.
  - apply after_fails.
Qed.

Lemma step_compile_error s i p rs' :
  Ready s p rs' -> oc i = O_compile_error -> fails_with (step' s i p) i F_compile.
Proof. intros H O. rewrite (step_ready _ _ _ _ H), O. split; [reflexivity | apply fail_end_stops]. Qed.

Lemma step_existing_loop s i p rs' :
  Ready s p rs' -> oc i = O_existing_loop -> fails_with (step' s i p) i F_existing_loop.
Proof. intros H O. rewrite (step_ready _ _ _ _ H), O. apply after_fails. Qed.

Lemma step_directive_error s i p e :
  r_end s = E_running -> part_update requires_met (r_rs s) p = UErr e ->
  fails_with (step' s i p) i F_directive.
Proof.
  intros E U. rewrite (step_from_step s i p _ E (sf_directive s i p e U)). split; [reflexivity | apply fail_end_stops].
Qed.

Lemma step_skipped s i p rs' :
  r_end s = E_running -> part_update requires_met (r_rs s) p = UOk rs' ->
  rs_skips rs' || negb (has_any_code p) = true ->
  let s' := step' s i p in
  r_skipped s' = r_skipped s ++ [i] /\ r_executed s' = r_executed s /\ r_checked s' = r_checked s /\
  r_logged s' = r_logged s /\ r_unmatched s' = r_unmatched s /\ r_failed s' = r_failed s /\
  r_end s' = E_running.
Proof.
  intros E U K. rewrite (step_from_step s i p _ E (sf_skip s i p rs' U K)). repeat split.
Qed.

Lemma step_return_never_raises s i p :
  c_on_error cfg = OE_return -> (forall f, r_end s <> E_raise f) ->
  forall f, r_end (step' s i p) <> E_raise f.
Proof.
  intros OE Hs f. destruct (r_end s) eqn:E; try (rewrite step_frozen by congruence; rewrite E; apply Hs).
  destruct (step_running s i p E) as [q _|e _|rs _ _|rs _ _ _|rs _]; cbn; unfold fail_end; rewrite ?OE; try discriminate.
  destruct (part_effect_of _ _ _ _) as [um c|f' c|[| |]|]; cbn; unfold fail_end; rewrite ?OE; discriminate.
Qed.

End Decide.

(* tb (the oracle's line of the doctest frame or SyntaxError, inside the failing part) is unconstrained: where used,
   this says "defined", not "inside the part" *)
Theorem failed_line_defined ps st tb : forall j f, r_failed st = Some (j, f) ->
  (j = None -> failed_line_offset ps st tb = Some O) /\
  (forall i p, j = Some i -> nth_error ps i = Some p ->
     exists o, failed_line_offset ps st tb = Some o /\
       match f with
       | F_gotwant => o = (line_offset p + length (exec_lines p))%nat       (* the first line of the want *)
       | F_extract_repr | F_existing_loop => o = (line_offset p + length (exec_lines p) - 1)%nat
       | F_directive => o = line_offset p
       | _ => o = (line_offset p + tb - 1)%nat
       end).
Proof.
  intros j f H. unfold failed_line_offset. rewrite H. split.
  - intros ->. reflexivity.
  - intros i p -> Hp. rewrite Hp. eexists. split; [reflexivity|]. destruct f; lia.
Qed.
