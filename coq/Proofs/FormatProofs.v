(* FormatProofs.v — the displayed source as an equation (C18): without numbers format_src is the parts' lines joined
   (format_src_text); with numbers the k-th line of a part carries startline + line_offset + k, its position when the
   offsets are positions (number_is_position).  The lines of a dumped part (dump_part_spec, C19).  All of it rests on
   "join the lines, split again: the same lines", for split_on NL and srclines (Model/Format.v) and for
   str.splitlines (DirInline, C04). *)
From XD Require Import Model.Format Proofs.BaseFacts.
Open Scope N_scope.

Definition NoNL (l : str) : Prop := forall c, In c l -> (c =? NL) = false.
(* no character at which str.splitlines() breaks *)
Definition Clean (l : str) : Prop := forall c, In c l -> is_linebreak c = false.

Lemma Clean_NoNL l : Clean l -> NoNL l.
Proof. intros H c Hc. exact (no_break_neq is_linebreak c NL (H c Hc) eq_refl). Qed.

(* for lines given as literals *)
Lemma NoNL_forallb l : forallb (fun c => negb (c =? NL)) l = true -> NoNL l.
Proof. exact (forallb_negb (fun c => c =? NL) l). Qed.

Lemma Clean_forallb l : forallb (fun c => negb (is_linebreak c)) l = true -> Clean l.
Proof. exact (forallb_negb is_linebreak l). Qed.

Lemma NoNL_cons c l : NoNL (c :: l) -> (c =? NL) = false /\ NoNL l.
Proof. intros H. split; [apply H; left; reflexivity | intros x Hx; apply H; right; exact Hx]. Qed.

Lemma NoNL_app a b : NoNL a -> NoNL b -> NoNL (a ++ b).
Proof. intros Ha Hb c Hc. apply in_app_or in Hc as [Hc|Hc]; auto. Qed.

Lemma split_on_line l rest : NoNL l -> split_on NL (l ++ NL :: rest) = l :: split_on NL rest.
Proof.
  induction l as [|c l IH]; intros H; [reflexivity|]. apply NoNL_cons in H as [Hc Hl].
  simpl. rewrite Hc, IH by exact Hl. reflexivity.
Qed.

Lemma split_on_last l : NoNL l -> split_on NL l = [l].
Proof.
  induction l as [|c l IH]; intros H; [reflexivity|]. apply NoNL_cons in H as [Hc Hl].
  simpl. rewrite Hc, IH by exact Hl. reflexivity.
Qed.

Lemma split_on_nonempty c s : split_on c s <> [].
Proof. destruct s as [|x s]; simpl; [|destruct (x =? c), (split_on c s)]; discriminate. Qed.

Lemma split_on_NoNL s : Forall NoNL (split_on NL s).
Proof.
  induction s as [|c s IH]; simpl; [constructor; [intros x [] | constructor]|].
  destruct (c =? NL) eqn:E; [constructor; [intros x [] | exact IH]|].
  destruct (split_on NL s) as [|p ps] eqn:S; [destruct (split_on_nonempty _ _ S)|].
  inversion IH as [|? ? Hp Hps]; subst. constructor; [|exact Hps].
  intros x [<-|Hx]; [exact E | exact (Hp x Hx)].
Qed.

Lemma split_join ls : ls <> [] -> Forall NoNL ls -> split_on NL (join_nl ls) = ls.
Proof.
  induction ls as [|l|l m r IH] using list_ind_join; intros NE H; inversion H; subst.
  - contradiction.
  - apply split_on_last. assumption.
  - rewrite join_nl_cons, split_on_line, IH by (assumption || discriminate). reflexivity.
Qed.

Lemma Clean_srcbreak l : Clean l -> BreakFree is_srcbreak l.
Proof.
  intros H c Hc. specialize (H c Hc). destruct (is_srcbreak c) eqn:E; [|reflexivity].
  apply orb_true_iff in E as [E|E]; apply N.eqb_eq in E; subst c; discriminate H.
Qed.

(* split_join for str.splitlines(), which also breaks at \r, \f, ... and drops a final empty line (hence l <> []), and
   for the parser's own line splitter (Base.srclines: newlines and carriage returns only, since fix F28) *)
Lemma splitlines_join ls : Forall (fun l => Clean l /\ l <> []) ls -> splitlines (join_nl ls) = ls.
Proof. exact (lines_join splitlines_scanner ls). Qed.

Lemma srclines_join ls : Forall (fun l => Clean l /\ l <> []) ls -> srclines (join_nl ls) = ls.
Proof.
  intros H. apply (lines_join srclines_scanner). revert H. apply Forall_impl.
  intros l [H Hne]. split; [apply Clean_srcbreak, H | exact Hne].
Qed.

Lemma Clean_lines_NoNL ls : Forall (fun l => Clean l /\ l <> []) ls -> Forall NoNL ls.
Proof. apply Forall_impl. intros l [H _]. apply Clean_NoNL, H. Qed.

Lemma join_nl_app (a b : list str) : a <> [] -> b <> [] -> join_nl (a ++ b) = join_nl a ++ NL :: join_nl b.
Proof.
  intros Ha Hb. induction a as [|x|x y a IH] using list_ind_join; [contradiction | destruct b; [contradiction | reflexivity] |].
  cbn [app] in *. rewrite !join_nl_cons, IH, <- app_assoc by discriminate. reflexivity.
Qed.

Lemma join_nl_concat (lss : list (list str)) : Forall (fun ls => ls <> []) lss ->
  join_nl (map join_nl lss) = join_nl (concat lss).
Proof.
  induction lss as [|ls|ls m r IH] using list_ind_join; intros H; [reflexivity | cbn; rewrite app_nil_r; reflexivity |].
  inversion H as [|? ? Hls Hr]; subst. cbn [map concat] in *. rewrite join_nl_cons, IH by assumption.
  rewrite (join_nl_app ls); [reflexivity | assumption |].
  inversion Hr; subst. destruct m; [contradiction | discriminate].
Qed.

(* every line non-empty; for lines that may be empty see BreakFreePart in FormatTrailing.v *)
Definition CleanPart (p : part) : Prop :=
  Forall (fun l => Clean l /\ l <> []) (orig_lines p) /\ Forall (fun l => Clean l /\ l <> []) (exec_lines p) /\
  Forall (fun l => Clean l /\ l <> []) (want_lines p).

Lemma format_part_pieces_plain p want prefix startline nd :
  format_part_pieces p (mkFmt false want prefix None) startline nd =
  (srclines (join_nl (if prefix then orig_lines p else exec_lines p)),
   if want then srclines (join_nl (want_lines p)) else []).
Proof. unfold format_part_pieces. cbn. destruct prefix, want; rewrite ?map_id; reflexivity. Qed.

Lemma add_line_numbers_nth lines : forall start nd k l, nth_error lines k = Some l ->
  nth_error (add_line_numbers lines start nd) k = Some (pad_left nd (decimal (start + k)) ++ [SP] ++ l).
Proof.
  induction lines as [|x r IH]; intros start nd k l H; [destruct k; discriminate|].
  destruct k; simpl in *.
  - inversion H; subst. rewrite Nat.add_0_r. reflexivity.
  - rewrite (IH (S start) nd k l H), Nat.add_succ_r. reflexivity.
Qed.

Lemma add_line_numbers_length lines start nd : length (add_line_numbers lines start nd) = length lines.
Proof. revert start. induction lines as [|x r IH]; intros start; simpl; [reflexivity | rewrite IH; reflexivity]. Qed.

(* with the parts' lines (source, then want) laid end to end from position base, the line_offset of every part is the
   position of its first line (C13); the displayed numbers are then the positions of the lines *)
Definition all_lines (p : part) : list str := orig_lines p ++ want_lines p.
Fixpoint OffsetsArePositions (base : nat) (parts : list part) : Prop :=
  match parts with
  | [] => True
  | p :: r => line_offset p = base /\ length (orig_lines p) = length (exec_lines p) /\
              OffsetsArePositions (base + length (all_lines p)) r
  end.

Theorem number_is_position parts : forall base j p k,
  OffsetsArePositions base parts -> nth_error parts j = Some p -> (k < length (orig_lines p))%nat ->
  (line_offset p + k = base + length (concat (map all_lines (firstn j parts))) + k)%nat /\
  nth_error (concat (map all_lines parts)) (line_offset p + k - base) = nth_error (orig_lines p) k.
Proof.
  induction parts as [|q r IH]; intros base j p k H Hj Hk; [destruct j; discriminate|].
  destruct H as (O & _ & R). destruct j as [|j]; simpl in Hj.
  - inversion Hj; subst q. simpl. split; [lia|].
    replace (line_offset p + k - base)%nat with k by lia.
    rewrite nth_error_app1 by (unfold all_lines; rewrite app_length; lia).
    unfold all_lines. rewrite nth_error_app1 by exact Hk. reflexivity.
  - destruct (IH _ _ _ _ R Hj Hk) as [A B]. simpl. split.
    + rewrite A, app_length. lia.
    + rewrite nth_error_app2 by lia. rewrite <- B. f_equal. lia.
Qed.

(* the lines of a part that are displayed under the options want / prefix *)
Definition shown (want prefix : bool) (p : part) : list str :=
  (if prefix then orig_lines p else exec_lines p) ++ (if want then want_lines p else []).

Definition SrcNonEmpty (prefix : bool) (p : part) : Prop := (if prefix then orig_lines p else exec_lines p) <> [].

Lemma CleanPart_shown want prefix p : CleanPart p -> Forall (fun l => Clean l /\ l <> []) (shown want prefix p).
Proof. intros (A & B & C). apply Forall_app. destruct prefix, want; auto. Qed.

(* only the lines that are shown need be clean *)
Lemma format_part_text p want prefix startline nd :
  Forall (fun l => Clean l /\ l <> []) (shown want prefix p) -> SrcNonEmpty prefix p ->
  format_part p (mkFmt false want prefix None) startline nd = join_nl (shown want prefix p).
Proof.
  unfold shown, SrcNonEmpty, format_part. intros H NE. apply Forall_app in H as [A C].
  rewrite format_part_pieces_plain. destruct want; rewrite !srclines_join by assumption; [|rewrite app_nil_r; reflexivity].
  destruct (want_lines p); [rewrite app_nil_r; reflexivity|].
  rewrite join_nl_app by (assumption || discriminate). reflexivity.
Qed.

Lemma format_src_unnumbered parts want prefix offset lineno :
  format_src parts false want offset prefix false lineno =
  join_nl (map (fun p => format_part p (mkFmt false want prefix None) 1%nat None) parts).
Proof.
  unfold format_src. cbn [andb].
  rewrite <- (map_map snd (fun p => format_part p (mkFmt false want prefix None) 1%nat None)).
  rewrite map_snd_combine by apply seq_length. reflexivity.
Qed.

Theorem format_src_text parts want prefix offset lineno :
  Forall (fun p => Forall (fun l => Clean l /\ l <> []) (shown want prefix p)) parts -> Forall (SrcNonEmpty prefix) parts ->
  format_src parts false want offset prefix false lineno = join_nl (concat (map (shown want prefix) parts)).
Proof.
  intros HC HS. rewrite format_src_unnumbered, <- join_nl_concat, map_map.
  - f_equal. apply map_ext_Forall. rewrite Forall_forall in *. intros p Hp. apply format_part_text; auto.
  - rewrite Forall_map. revert HS. apply Forall_impl. unfold shown, SrcNonEmpty. intros p.
    destruct (if prefix then orig_lines p else exec_lines p); [contradiction | discriminate].
Qed.

Lemma indent_lines (pfx : str) (ls : list str) : ls <> [] ->
  pfx ++ join ([NL] ++ pfx) ls = join_nl (map (fun l => pfx ++ l) ls).
Proof.
  induction ls as [|l|l m r IH] using list_ind_join; intros NE; [contradiction | reflexivity |].
  change (pfx ++ l ++ ([NL] ++ pfx) ++ join ([NL] ++ pfx) (m :: r) =
          (pfx ++ l) ++ NL :: join_nl (map (fun l => pfx ++ l) (m :: r))).
  rewrite <- IH, <- !app_assoc by discriminate. reflexivity.
Qed.

Theorem indent_text_lines pfx text : NoNL pfx ->
  split_on NL (indent_text pfx text) = map (fun l => pfx ++ l) (split_on NL text).
Proof.
  intros Hp. unfold indent_text. rewrite indent_lines by apply split_on_nonempty. apply split_join.
  - intros E. apply map_eq_nil in E. exact (split_on_nonempty _ _ E).
  - rewrite Forall_map. eapply Forall_impl; [|apply split_on_NoNL]. intros l. apply NoNL_app, Hp.
Qed.

Lemma indent_text_join pfx ls : ls <> [] -> Forall NoNL ls ->
  indent_text pfx (join_nl ls) = join_nl (map (fun l => pfx ++ l) ls).
Proof. intros NE H. unfold indent_text. rewrite split_join by assumption. apply indent_lines, NE. Qed.

(* the body of one part: its executable lines in order minus star imports, then the want as comments *)
Definition dump_part_lines (p : part) : list str :=
  filter no_star (exec_lines p) ++
  match want_lines p with [] => [] | wl => WANT_HDR :: map (fun l => HASH_SP ++ l) wl end.

Theorem dump_part_spec p :
  Forall (fun l => Clean l /\ l <> []) (exec_lines p) -> Forall (fun l => Clean l /\ l <> []) (want_lines p) ->
  filter no_star (exec_lines p) <> [] ->
  split_on NL (dump_part p) = dump_part_lines p.
Proof.
  intros B C NE. unfold dump_part, dump_part_lines.
  apply (incl_Forall (incl_filter no_star _)) in B. rewrite (srclines_join _ B).
  apply Clean_lines_NoNL in B, C. destruct (want_lines p) as [|w ws].
  - rewrite app_nil_r. apply split_join; assumption.
  - rewrite indent_text_join by (discriminate || exact C). cbn [app map].
    (* the text is join_nl of the lines claimed *)
    rewrite <- join_nl_cons, <- join_nl_app by (assumption || discriminate). apply split_join.
    + destruct (filter no_star (exec_lines p)); [contradiction | discriminate].
    + apply Forall_app. split; [exact B|]. constructor; [exact (NoNL_forallb WANT_HDR eq_refl)|].
      apply (Forall_map (fun l => HASH_SP ++ l) NoNL (w :: ws)). revert C. apply Forall_impl. intros l.
      apply NoNL_app. exact (NoNL_forallb HASH_SP eq_refl).
Qed.
