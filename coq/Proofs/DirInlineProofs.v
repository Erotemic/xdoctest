(* DirInlineProofs.v — the inline/block classification of Model/DirInline.v (C04; finding F31). *)
From XD Require Import Model.DirInline Proofs.BaseFacts Proofs.FormatProofs Proofs.FormatTrailing.
Open Scope N_scope.

Theorem extract_inline_iff text :
  extract_inline text = true <->
  exists l, In l (splitlines text) /\ blank_line l = false /\ comment_line l = false.
Proof.
  unfold extract_inline. rewrite negb_true_iff, forallb_false. split; intros (l & Hl & H); exists l.
  - apply filter_In in Hl as [Hl B]. apply negb_true_iff in B. auto.
  - split; [apply filter_In; split; [exact Hl | apply negb_true_iff, H] | apply H].
Qed.

(* a statement written as lines each of which is empty or a comment: its directives are BLOCK directives -- however many
   empty lines stand in front of, between or behind the comments (fix F31) *)
Theorem comment_only_statement_is_block ls :
  Forall Clean ls -> Forall (fun l => blank_line l = true \/ comment_line l = true) ls ->
  extract_inline (join_nl ls) = false.
Proof.
  intros Hc Hk. destruct (extract_inline (join_nl ls)) eqn:E; [|reflexivity].
  apply extract_inline_iff in E. destruct E as (l & Hl & B & C).
  rewrite (splitlines_join_all ls Hc) in Hl. apply drop_last_empty_incl in Hl.
  rewrite Forall_forall in Hk. destruct (Hk l Hl) as [X|X]; [rewrite X in B | rewrite X in C]; discriminate.
Qed.

(* the directive comment of the F31 witnesses (C04_block_with_spacing_refuted_before_F31) *)
Definition demo_directive_comment : str := [35;32;120;100;111;99;116;101;115;116;58;32;43;83;75;73;80].   (* "# xdoctest: +SKIP" *)
