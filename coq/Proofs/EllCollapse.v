(* EllCollapse.v — the wildcard relation survives ' '.join(text.split()) on both texts (ellmatch_collapse): xdoctest's
   separators swallow the white space around '...', and collapsing never joins dots nor separates them.  collapse_ws is
   re-expressed as the one-pass scanner cgo (started: a word character was written before; pending: white space was seen
   since; cst: the state behind a text), compositional (cgo_app) where join/words is not; split_sim runs split_go on
   a text and on its collapsed form in lock step. *)
From XD Require Import Model.Checker Spec.EllipsisSpec Proofs.BaseFacts Proofs.EllipsisProofs Proofs.WordsFacts.
Open Scope N_scope.

Fixpoint cgo (s : str) (st pd : bool) : str :=
  match s with
  | [] => []
  | c :: s' => if is_space c then cgo s' st st
               else (if pd then [SP] else []) ++ c :: cgo s' true false
  end.
Fixpoint cst (s : str) (st pd : bool) : bool * bool :=
  match s with
  | [] => (st, pd)
  | c :: s' => if is_space c then cst s' st st else cst s' true false
  end.

Lemma cgo_app x : forall y st pd,
  cgo (x ++ y) st pd = cgo x st pd ++ cgo y (fst (cst x st pd)) (snd (cst x st pd)).
Proof.
  induction x as [|a x IH]; intros y st pd; cbn [app cgo cst]; [reflexivity|].
  destruct (is_space a); [apply IH|]. rewrite IH, <- app_assoc. reflexivity.
Qed.

Lemma cst_app x : forall y st pd, cst (x ++ y) st pd = cst y (fst (cst x st pd)) (snd (cst x st pd)).
Proof. induction x as [|a x IH]; intros y st pd; cbn [app cst]; [reflexivity|]. destruct (is_space a); apply IH. Qed.

(* the start state only decides what comes in front of the output (J is a blank or nothing) *)
Lemma cgo_state y : forall st pd, exists J, cgo y st pd = J ++ cgo y false false.
Proof.
  induction y as [|c y IH]; intros st pd; [exists []; reflexivity|].
  cbn [cgo]. destruct (is_space c).
  - apply IH.
  - exists (if pd then [SP] else []). reflexivity.
Qed.

(* with a blank in front of every word, the last word is no special case *)
Lemma cgo_words s : forall cur,
  concat (map (cons SP) (words_aux s cur)) =
  if nonempty cur then SP :: rev cur ++ cgo s true false else cgo s true true.
Proof.
  induction s as [|c s IH]; intros cur.
  - destruct cur; [reflexivity|]. cbn [words_aux map concat nonempty cgo]. rewrite !app_nil_r. reflexivity.
  - cbn [words_aux cgo]. destruct (is_space c).
    + destruct cur; [apply IH|]. cbn [map concat nonempty]. rewrite (IH []). reflexivity.
    + rewrite IH. cbn [nonempty rev]. rewrite <- app_assoc. destruct cur; reflexivity.
Qed.

Lemma words_aux_nonempty y cur : cur <> [] -> words_aux y cur <> [].
Proof. intros H E. pose proof (cgo_words y cur) as K. rewrite E in K. destruct cur; [contradiction|discriminate K]. Qed.

Lemma cgo_pending s : cgo s true true = concat (map (cons SP) (words s)).
Proof. symmetry. apply (cgo_words s []). Qed.

Lemma cgo_tl s : cgo s false false = tl (cgo s true true).
Proof. induction s as [|c s IH]; [reflexivity|]. cbn [cgo]. destruct (is_space c); [exact IH|reflexivity]. Qed.

Theorem cgo_collapse s : collapse_ws s = cgo s false false.
Proof.
  rewrite cgo_tl, cgo_pending. unfold collapse_ws. destruct (words s); [reflexivity|apply (join_cons [SP])].
Qed.

Lemma cgo_delete s : forall st pd, delete_ws (cgo s st pd) = delete_ws s.
Proof.
  unfold delete_ws. induction s as [|c s IH]; intros st pd; [reflexivity|].
  cbn [cgo filter]. destruct (is_space c) eqn:E; cbn [negb]; [apply IH|].
  rewrite filter_app. cbn [filter]. rewrite E, IH. destruct pd; reflexivity.
Qed.

Lemma collapse_app x y : exists J, collapse_ws (x ++ y) = collapse_ws x ++ J ++ collapse_ws y.
Proof.
  rewrite !cgo_collapse, cgo_app. destruct (cgo_state y (fst (cst x false false)) (snd (cst x false false))) as (J & E).
  exists J. rewrite E. reflexivity.
Qed.

Lemma collapse_mid a r b : exists r', collapse_ws (a ++ r ++ b) = collapse_ws a ++ r' ++ collapse_ws b.
Proof.
  destruct (collapse_app a (r ++ b)) as (J1 & E1). destruct (collapse_app r b) as (J2 & E2).
  exists (J1 ++ collapse_ws r ++ J2). rewrite E1, E2, <- !app_assoc. reflexivity.
Qed.

Lemma InOrder_collapse ps r : InOrder ps r -> forall a b, exists r',
  collapse_ws (a ++ r ++ b) = collapse_ws a ++ r' ++ collapse_ws b /\ InOrder (map collapse_ws ps) r'.
Proof.
  induction 1 as [g|p ps g1 g2 H IH]; intros a b.
  - destruct (collapse_mid a g b) as (r' & E). exists r'. split; [exact E|constructor].
  - destruct (IH (a ++ g1 ++ p) b) as (r2 & E2 & I2). destruct (collapse_mid a g1 p) as (r1 & E1).
    exists (r1 ++ collapse_ws p ++ r2). split.
    + replace (a ++ (g1 ++ p ++ g2) ++ b) with ((a ++ g1 ++ p) ++ g2 ++ b) by (rewrite <- !app_assoc; reflexivity).
      rewrite E2, E1, <- !app_assoc. reflexivity.
    + cbn [map]. constructor. exact I2.
Qed.

Lemma collapse_trailing x t : forallb is_space t = true -> collapse_ws (x ++ t) = collapse_ws x.
Proof. intros H. unfold collapse_ws. rewrite words_app_trailing by exact H. reflexivity. Qed.

Lemma cgo_pending_head s : cgo s true true = [] \/ exists r, cgo s true true = SP :: r.
Proof. rewrite cgo_pending. destruct (words s); [left; reflexivity|right; eexists; reflexivity]. Qed.

Lemma dot_not_space : is_space DOT = false. Proof. reflexivity. Qed.

Lemma starts_with_cgo p : existsb is_space p = false -> forall s, starts_with p (cgo s true false) = starts_with p s.
Proof.
  induction p as [|a p IH]; intros Hp s; [rewrite !starts_with_nil; reflexivity|].
  cbn [existsb] in Hp. apply orb_false_elim in Hp as [Ha Hp].
  destruct s as [|f s]; [reflexivity|]. cbn [cgo]. destruct (is_space f) eqn:E.
  - cbn [starts_with]. rewrite (no_break_neq is_space a f Ha E).
    destruct (cgo_pending_head s) as [->|(r & ->)]; [reflexivity|]. cbn [starts_with].
    rewrite (no_break_neq is_space a SP Ha eq_refl). reflexivity.
  - cbn [app starts_with]. rewrite IH by exact Hp. reflexivity.
Qed.

Lemma marker_cgo_start c s : starts_with marker (c :: cgo s true false) = starts_with marker (c :: s).
Proof.
  change (starts_with marker (c :: cgo s true false)) with ((DOT =? c) && starts_with [DOT; DOT] (cgo s true false)).
  rewrite starts_with_cgo by reflexivity. reflexivity.
Qed.

Lemma marker_start_inv c s : starts_with marker (c :: s) = true -> c = DOT /\ exists s', s = DOT :: DOT :: s'.
Proof.
  intros H. apply starts_with_spec in H as (t & E). unfold marker in E. cbn in E. injection E as -> ->.
  split; [reflexivity|]. eexists. reflexivity.
Qed.

(* the k dots still to be skipped are there and are no white space, so cgo copies them *)
Fixpoint NoSpaceHead (k : nat) (s : str) : Prop :=
  match k, s with
  | O, _ => True
  | S k', c :: s' => is_space c = false /\ NoSpaceHead k' s'
  | S _, [] => False
  end.

(* the blank cgo writes in front of a word becomes split_go's pending white space, or is eaten behind a marker *)
Lemma lhs_step (pd : bool) X P e :
  split_go ((if pd then [SP] else []) ++ X) P [] 0 e = split_go X P (if pd && negb e then [SP] else []) 0 e.
Proof. destruct pd; [|reflexivity]. destruct e; reflexivity. Qed.

Lemma sim_nonws (c : N) s st pd P e : is_space c = false ->
  split_go (cgo (c :: s) st pd) P [] 0 e =
  if starts_with marker (c :: s) then rev P :: split_go (cgo s true false) [] [] 2 true
  else split_go (cgo s true false) (c :: (if pd && negb e then [SP] else []) ++ P) [] 0 false.
Proof. intros Sc. cbn [cgo]. rewrite Sc, lhs_step. cbn [split_go]. rewrite marker_cgo_start, Sc. reflexivity. Qed.

(* Inside a piece split_go has read X = rev (q ++ p) of it: P is what cgo wrote for X, (st, pd) the state of cgo behind
   X.  Behind a marker nothing of the next piece is read and cgo has written the dots. *)
Lemma split_sim s :
  (forall (p q P : str) st pd, forallb is_space q = true ->
     rev P = cgo (rev (q ++ p)) false false -> cst (rev (q ++ p)) false false = (st, pd) ->
     split_go (cgo s st pd) P [] 0 false = map collapse_ws (split_go s p q 0 false)) /\
  (forall k pd, k = O \/ pd = false -> NoSpaceHead k s ->
     split_go (cgo s true pd) [] [] k true = map collapse_ws (split_go s [] [] k true)).
Proof.
  induction s as [|c s [IH0 IH1]]; (split; [intros p q P st pd Hq HP HS|intros k pd Hk HN]).
  - cbn [cgo split_go map app]. rewrite cgo_collapse, HP. reflexivity.
  - reflexivity.
  - cbn [split_go]. destruct (starts_with marker (c :: s)) eqn:M; [|destruct (is_space c) eqn:Sc].
    + destruct (marker_start_inv _ _ M) as (-> & s2 & ->). rewrite sim_nonws by reflexivity. rewrite M. cbn [map]. f_equal.
      * rewrite HP, rev_app_distr, <- cgo_collapse. apply collapse_trailing. rewrite forallb_rev. exact Hq.
      * apply IH1; [right; reflexivity|repeat split].
    + cbn [cgo]. rewrite Sc. apply IH0; cbn [app rev].
      * cbn [forallb]. rewrite Sc. exact Hq.
      * rewrite cgo_app, HS. cbn [fst snd cgo]. rewrite Sc, app_nil_r. exact HP.
      * rewrite cst_app, HS. cbn [fst snd cst]. rewrite Sc. reflexivity.
    + rewrite sim_nonws by exact Sc. rewrite M. apply IH0; cbn [app rev negb]; [reflexivity| |].
      * rewrite cgo_app, HS, andb_true_r, rev_app_distr, <- HP, <- app_assoc. cbn [fst snd cgo]. rewrite Sc.
        destruct pd; reflexivity.
      * rewrite cst_app, HS. cbn [fst snd cst]. rewrite Sc. reflexivity.
  - destruct k as [|k].
    + cbn [split_go]. destruct (starts_with marker (c :: s)) eqn:M; [|destruct (is_space c) eqn:Sc].
      * destruct (marker_start_inv _ _ M) as (-> & s2 & ->). rewrite sim_nonws by reflexivity. rewrite M. cbn [map]. f_equal.
        apply IH1; [right; reflexivity|repeat split].
      * cbn [cgo]. rewrite Sc. apply IH1; [left; reflexivity|exact I].
      * rewrite sim_nonws by exact Sc. rewrite M. rewrite andb_false_r.
        apply IH0; cbn [app rev cgo cst]; rewrite ?Sc; reflexivity.
    + (* inside a marker: its remaining dots are skipped on both sides *)
      destruct HN as (Sc & HN). destruct Hk as [Hk| ->]; [discriminate Hk|]. cbn [cgo split_go]. rewrite Sc. cbn [app split_go].
      apply IH1; [right; reflexivity|exact HN].
Qed.

Theorem split_ell_collapse w : split_ell (collapse_ws w) = map collapse_ws (split_ell w).
Proof. rewrite cgo_collapse. exact (proj1 (split_sim w) [] [] [] false false eq_refl eq_refl eq_refl). Qed.

Lemma marker_collapse w : contains marker (collapse_ws w) = contains marker w.
Proof.
  rewrite (split_go_marker w [] [] false), (split_go_marker (collapse_ws w) [] [] false).
  fold (split_ell w) (split_ell (collapse_ws w)). rewrite split_ell_collapse, map_length. reflexivity.
Qed.

Theorem ellmatch_collapse g w : EllMatch g w -> EllMatch (collapse_ws g) (collapse_ws w).
Proof.
  unfold EllMatch. rewrite marker_collapse. destruct (contains marker w) eqn:Hw.
  - intros (w0 & mids & wl & rest & S & -> & I).
    destruct (InOrder_collapse mids rest I w0 wl) as (r' & E & I').
    exists (collapse_ws w0), (map collapse_ws mids), (collapse_ws wl), r'. split; [|split; [exact E|exact I']].
    rewrite split_ell_collapse, S. cbn [map]. rewrite map_app. reflexivity.
  - intros ->. reflexivity.
Qed.
