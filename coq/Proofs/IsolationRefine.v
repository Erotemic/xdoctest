(* IsolationRefine.v — the heap model of the directive state (Model/Isolation.v) refines the pure RuntimeState model
   (Model/Directive.v) as long as the state's set cells are distinct, which deepcopy guarantees; hence (C11) the
   directive states of a run do not depend on earlier runs in the process. *)
From XD Require Import Model.Isolation Proofs.BaseFacts Proofs.IsolationProofs Proofs.DirectiveProofs.
Open Scope N_scope.

(* a heap state read as a pure state *)
Definition abs_val (h : heap) (v : hvalue) : value :=
  match v with HBool b => VBool b | HSet c => VSet (hread h c) end.
Definition abs_dict (h : heap) (d : hdict) : dict := map (fun kv => (fst kv, abs_val h (snd kv))) d.
Definition abs (h : heap) (st : hstate) : runstate := mkRS (abs_dict h (hs_global st)) (abs_dict h (hs_inline st)).

Lemma dget_abs h k d : dget k (abs_dict h d) = option_map (abs_val h) (hget k d).
Proof. induction d as [|[k' v] d IH]; simpl; [reflexivity|]. destruct (eqb_str k k'); [reflexivity | exact IH]. Qed.

Lemma dset_abs h k v d : dset k (abs_val h v) (abs_dict h d) = abs_dict h (hset k v d).
Proof. induction d as [|[k' v'] d IH]; simpl; [reflexivity|]. destruct (eqb_str k k'); simpl; [reflexivity | rewrite IH; reflexivity]. Qed.

Lemma abs_hs_put inl h k v st : abs h (hs_put inl k v st) = rs_put inl k (abs_val h v) (abs h st).
Proof. destruct inl; unfold abs, rs_put; simpl; rewrite dset_abs; reflexivity. Qed.

(* written with the case analysis of IsolationProofs.happly_set, so that both sides of happly_refines are destructed
   together *)
Lemma rs_cur_abs inl h st k : rs_cur inl (abs h st) k =
  option_map (abs_val h) match hget k (hs_mine inl st) with
                         | Some v => Some v
                         | None => if inl then hget k (hs_global st) else None
                         end.
Proof.
  destruct inl; unfold rs_cur, eff; cbn [abs rs_global rs_inline hs_mine]; rewrite !dget_abs.
  - destruct (hget k (hs_inline st)); reflexivity.
  - destruct (hget k (hs_global st)); reflexivity.
Qed.

Lemma hget_hset_same k v d : hget k (hset k v d) = Some v.
Proof.
  induction d as [|[k' w] d IH]; simpl.
  - rewrite eqb_str_refl. reflexivity.
  - destruct (eqb_str k k') eqn:E; simpl; rewrite ?eqb_str_refl, ?E; [reflexivity | exact IH].
Qed.

Fixpoint cells (d : hdict) : list cell :=
  match d with
  | [] => []
  | (_, HSet c) :: r => c :: cells r
  | (_, HBool _) :: r => cells r
  end.

(* the set cells of both dicts are pairwise distinct and allocated *)
Record Sep (h : heap) (st : hstate) : Prop := mkSep {
  sep_nodup : NoDup (cells (hs_global st) ++ cells (hs_inline st));
  sep_range : forall c, In c (cells (hs_global st) ++ cells (hs_inline st)) -> (c < length h)%nat
}.

Lemma hget_cell k d c : hget k d = Some (HSet c) -> In c (cells d).
Proof.
  induction d as [|[k' v] d IH]; simpl; [discriminate|]. destruct (eqb_str k k').
  - intros [= ->]. left. reflexivity.
  - intros H. destruct v; [apply IH; exact H | right; apply IH; exact H].
Qed.

Lemma hread_hwrite_same h c v : (c < length h)%nat -> hread (hwrite h c v) c = v.
Proof.
  unfold hread. revert c. induction h as [|x h IH]; intros c H; simpl in *; [lia|].
  destruct c; simpl; [reflexivity | apply IH; lia].
Qed.
Lemma hread_hwrite_other h c c' v : c <> c' -> hread (hwrite h c v) c' = hread h c'.
Proof.
  unfold hread. revert c c'. induction h as [|x h IH]; intros c c' H; simpl; [reflexivity|].
  destruct c; destruct c'; simpl; try reflexivity; [congruence | apply IH; congruence].
Qed.
Lemma hread_app_old h v c : (c < length h)%nat -> hread (h ++ [v]) c = hread h c.
Proof. apply app_nth1. Qed.

(* the frame property *)
Lemma abs_dict_same_reads h1 h2 d : (forall c, In c (cells d) -> hread h1 c = hread h2 c) -> abs_dict h1 d = abs_dict h2 d.
Proof.
  induction d as [|[k v] d IH]; simpl; intros H; [reflexivity|]. destruct v as [b|c]; simpl in *.
  - rewrite IH by exact H. reflexivity.
  - rewrite (H c (or_introl eq_refl)), IH by (intros c' Hc'; apply H; right; exact Hc'). reflexivity.
Qed.

Lemma abs_dict_hwrite_other h c v d : ~ In c (cells d) -> abs_dict (hwrite h c v) d = abs_dict h d.
Proof. intros N. apply abs_dict_same_reads. intros c' Hc'. apply hread_hwrite_other. congruence. Qed.

Lemma abs_dict_app h v d : (forall c, In c (cells d) -> (c < length h)%nat) -> abs_dict (h ++ [v]) d = abs_dict h d.
Proof. intros H. apply abs_dict_same_reads. intros c Hc. apply hread_app_old. apply H. exact Hc. Qed.

(* where distinct cells are needed *)
Lemma abs_dict_hwrite_key h k c v d :
  hget k d = Some (HSet c) -> NoDup (cells d) -> (c < length h)%nat ->
  abs_dict (hwrite h c v) d = dset k (VSet v) (abs_dict h d).
Proof.
  induction d as [|[k' w] d IH]; simpl; [discriminate|]. intros G ND L.
  destruct (eqb_str k k') eqn:E.
  - apply eqb_str_spec in E. injection G as ->. subst k'. apply NoDup_cons_iff in ND as [Hnin _]. simpl.
    rewrite hread_hwrite_same, abs_dict_hwrite_other by assumption. reflexivity.
  - destruct w as [b|c']; simpl.
    + rewrite IH by assumption. reflexivity.
    + apply NoDup_cons_iff in ND as [Hnin Hnd].
      assert (Hne : c <> c') by (intros ->; exact (Hnin (hget_cell _ _ _ G))).
      rewrite hread_hwrite_other, IH by assumption. reflexivity.
Qed.

Lemma NoDup_app {A} (a b : list A) :
  NoDup (a ++ b) <-> NoDup a /\ NoDup b /\ (forall x, In x a -> In x b -> False).
Proof.
  induction a as [|y a IH]; simpl.
  - split; [intros H; repeat apply conj; [constructor | exact H | intros x []] | tauto].
  - rewrite !NoDup_cons_iff, IH, in_app_iff. split.
    + intros (N & Na & Nb & D). repeat apply conj; [tauto | exact Na | exact Nb|]. intros x [<-|Hx] Hb; [tauto | eauto].
    + intros ((N & Na) & Nb & D). repeat apply conj; [intros [X|X]; [tauto | eauto] | exact Na | exact Nb | eauto].
Qed.

(* setting a key to a boolean or dropping the overlay leaves a sub-sequence of the cells; NoDup and bounds go down *)
Inductive Subseq {A} : list A -> list A -> Prop :=
| ss_nil : Subseq [] []
| ss_skip x a b : Subseq a b -> Subseq a (x :: b)
| ss_keep x a b : Subseq a b -> Subseq (x :: a) (x :: b).

Lemma Subseq_refl {A} (l : list A) : Subseq l l.
Proof. induction l; constructor; assumption. Qed.
Lemma Subseq_nil {A} (l : list A) : Subseq [] l.
Proof. induction l; constructor; assumption. Qed.
Lemma Subseq_in {A} (a b : list A) x : Subseq a b -> In x a -> In x b.
Proof.
  intros S. induction S as [|y a b S IH|y a b S IH]; simpl; intros Hin;
    [exact Hin | right; auto | destruct Hin as [Hin|Hin]; [left; exact Hin | right; auto]].
Qed.
Lemma Subseq_nodup {A} (a b : list A) : Subseq a b -> NoDup b -> NoDup a.
Proof.
  intros S. induction S as [|y a b S IH|y a b S IH]; intros ND; [constructor | inversion ND; auto |].
  inversion ND as [|? ? Hnin Hnd]; subst. constructor; [intros X; apply Hnin; eapply Subseq_in; eassumption | auto].
Qed.
Lemma Subseq_app {A} (a a' b b' : list A) : Subseq a a' -> Subseq b b' -> Subseq (a ++ b) (a' ++ b').
Proof.
  intros S. induction S as [|y a0 b0 S IH|y a0 b0 S IH]; intros Hb; simpl;
    [exact Hb | apply ss_skip; apply IH; exact Hb | apply ss_keep; apply IH; exact Hb].
Qed.

Lemma cells_hset_bool k b d : Subseq (cells (hset k (HBool b) d)) (cells d).
Proof.
  induction d as [|[k' w] d IH]; simpl; [constructor|]. destruct (eqb_str k k').
  - simpl. destruct w; [apply Subseq_refl | constructor; apply Subseq_refl].
  - simpl. destruct w; [exact IH | constructor; exact IH].
Qed.

Lemma cells_hset_new k c d : hget k d = None -> cells (hset k (HSet c) d) = cells d ++ [c].
Proof.
  induction d as [|[k' w] d IH]; simpl; [reflexivity|]. destruct (eqb_str k k'); [discriminate|].
  intros H. simpl. destruct w; rewrite IH by exact H; reflexivity.
Qed.

Lemma Sep_at inl h st k c : Sep h st -> hget k (hs_mine inl st) = Some (HSet c) ->
  (c < length h)%nat /\ NoDup (cells (hs_mine inl st)) /\ ~ In c (cells (hs_mine (negb inl) st)).
Proof.
  intros [ND RG] G. apply hget_cell in G. apply NoDup_app in ND as (Ng & Ni & D).
  destruct inl; cbn [hs_mine negb] in *; (repeat apply conj; [apply RG, in_or_app; auto | assumption | eauto]).
Qed.

Lemma Sep_mono h h' st st' : (length h <= length h')%nat ->
  Subseq (cells (hs_global st')) (cells (hs_global st)) -> Subseq (cells (hs_inline st')) (cells (hs_inline st)) ->
  Sep h st -> Sep h' st'.
Proof.
  intros L Sg Si [ND RG]. pose proof (Subseq_app _ _ _ _ Sg Si) as S. constructor.
  - exact (Subseq_nodup _ _ S ND).
  - intros c Hc. apply (Subseq_in _ _ _ S), RG in Hc. lia.
Qed.

Lemma Sep_put_bool inl h k b st : Sep h st -> Sep h (hs_put inl k (HBool b) st).
Proof.
  destruct inl; cbn [hs_put].
  - apply Sep_mono; [apply le_n | apply Subseq_refl | apply cells_hset_bool].
  - apply Sep_mono; [apply le_n | apply cells_hset_bool | apply Subseq_refl].
Qed.

(* a set operation (IsolationProofs.happly_set) either writes the key's cell in place ... *)
Lemma hwrite_refines inl h st k c v : Sep h st -> hget k (hs_mine inl st) = Some (HSet c) ->
  abs (hwrite h c v) st = rs_put inl k (VSet v) (abs h st) /\ Sep (hwrite h c v) st.
Proof.
  intros S G. destruct (Sep_at inl h st k c S G) as (L & ND & N). split.
  - unfold abs, rs_put. destruct inl; cbn [hs_mine negb] in *; simpl;
      rewrite (abs_dict_hwrite_key h k c v _ G ND L), (abs_dict_hwrite_other _ _ _ _ N); reflexivity.
  - apply (Sep_mono h _ st); [rewrite hwrite_length; lia | apply Subseq_refl | apply Subseq_refl | exact S].
Qed.

(* ... or seeds the overlay: a key it lacks is pointed to a new cell *)
Lemma seed_refines h st k v : Sep h st -> hget k (hs_inline st) = None ->
  abs (h ++ [v]) (hs_put true k (HSet (length h)) st) = rs_put true k (VSet v) (abs h st) /\
  Sep (h ++ [v]) (hs_put true k (HSet (length h)) st).
Proof.
  intros [ND RG] GI. split.
  - rewrite abs_hs_put. cbn [abs_val]. rewrite hread_app_new. unfold abs.
    rewrite !abs_dict_app by (intros c Hc; apply RG, in_or_app; auto). reflexivity.
  - assert (Fresh : ~ In (length h) (cells (hs_global st) ++ cells (hs_inline st))) by (intros X; specialize (RG _ X); lia).
    constructor; cbn [hs_put hs_global hs_inline]; rewrite cells_hset_new by exact GI; rewrite app_assoc.
    + apply NoDup_app. repeat apply conj; [exact ND | repeat constructor; intros [] | intros c Hc [<-|[]]; exact (Fresh Hc)].
    + intros c Hc. rewrite app_length. simpl. apply in_app_or in Hc.
      destruct Hc as [Hc|[<-|[]]]; [specialize (RG _ Hc); lia | lia].
Qed.

Definition inline_of (e : heffect) : bool := match e with HE_assign i _ _ => i | HE_set i _ _ _ => i end.
Definition effect_of (e : heffect) : effect :=
  match e with
  | HE_assign _ key b => mkEffect A_assign key (VBool b)
  | HE_set _ add key arg => mkEffect (if add then A_set_add else A_set_remove) key (VSet [arg])
  end.

Lemma set_op_pure add arg s :
  (match e_action (effect_of (HE_set true add [] arg)) with A_set_add => set_add arg | _ => set_remove arg end) s = set_op add arg s.
Proof. destruct add; reflexivity. Qed.

Theorem happly_refines h st e : Sep h st ->
  match happly h st e with
  | Some (h', st') => apply_effect (inline_of e) (abs h st) (effect_of e) = UOk (abs h' st') /\ Sep h' st'
  | None => exists x, apply_effect (inline_of e) (abs h st) (effect_of e) = UErr x
  end.
Proof.
  intros S. destruct e as [inl k b | inl add k x]; cbn [inline_of effect_of].
  - rewrite happly_assign, apply_assign. change (VBool b) with (abs_val h (HBool b)). rewrite <- abs_hs_put.
    split; [reflexivity | apply Sep_put_bool; exact S].
  - rewrite happly_set, apply_set_op, rs_cur_abs.
    destruct (hget k (hs_mine inl st)) as [[b|c]|] eqn:G; cbn [option_map abs_val].
    + eexists. reflexivity.
    + destruct (hwrite_refines inl h st k c (set_op add x (hread h c)) S G) as [-> S']. split; [reflexivity | exact S'].
    + destruct inl; [|eexists; reflexivity].
      destruct (hget k (hs_global st)) as [[b|c]|]; cbn [option_map abs_val]; try (eexists; reflexivity).
      destruct (seed_refines h st k (set_op add x (hread h c)) S G) as [-> S']. split; [reflexivity | exact S'].
Qed.

(* each effect with its own block/inline flag *)
Fixpoint papply_all (rs : runstate) (es : list heffect) : ures runstate :=
  match es with
  | [] => UOk rs
  | e :: r => match apply_effect (inline_of e) rs (effect_of e) with
              | UOk rs' => papply_all rs' r
              | x => x
              end
  end.
(* RuntimeState.update: the overlay is dropped first *)
Definition pupdate (rs : runstate) (es : list heffect) : ures runstate := papply_all (mkRS (rs_global rs) []) es.

Theorem happly_all_refines es : forall h st, Sep h st ->
  match happly_all h st es with
  | Some (h', st') => papply_all (abs h st) es = UOk (abs h' st') /\ Sep h' st'
  | None => exists x, papply_all (abs h st) es = UErr x
  end.
Proof.
  induction es as [|e r IH]; intros h st S; cbn [happly_all papply_all].
  - split; [reflexivity | exact S].
  - pose proof (happly_refines h st e S) as R. destruct (happly h st e) as [[h1 st1]|].
    + destruct R as [E S1]. rewrite E. apply IH. exact S1.
    + destruct R as [x E]. rewrite E. exists x. reflexivity.
Qed.

Lemma Sep_clear h st : Sep h st -> Sep h (mkHS (hs_global st) []).
Proof. apply Sep_mono; [apply le_n | apply Subseq_refl | apply Subseq_nil]. Qed.

Theorem hs_update_refines h st es : Sep h st ->
  match hs_update h st es with
  | Some (h', st') => pupdate (abs h st) es = UOk (abs h' st') /\ Sep h' st'
  | None => exists x, pupdate (abs h st) es = UErr x
  end.
Proof. intros S. unfold hs_update, pupdate. exact (happly_all_refines es h _ (Sep_clear h st S)). Qed.

(* a run's directive states: one per part, up to the first update that raises *)
Fixpoint hs_trace (h : heap) (st : hstate) (parts : list (list heffect)) : list runstate :=
  match parts with
  | [] => []
  | es :: r => match hs_update h st es with
               | Some (h', st') => abs h' st' :: hs_trace h' st' r
               | None => []
               end
  end.
Fixpoint p_trace (rs : runstate) (parts : list (list heffect)) : list runstate :=
  match parts with
  | [] => []
  | es :: r => match pupdate rs es with
               | UOk rs' => rs' :: p_trace rs' r
               | _ => []
               end
  end.

Theorem hs_trace_refines parts : forall h st, Sep h st -> hs_trace h st parts = p_trace (abs h st) parts.
Proof.
  induction parts as [|es r IH]; intros h st S; cbn [hs_trace p_trace]; [reflexivity|].
  pose proof (hs_update_refines h st es S) as R. destruct (hs_update h st es) as [[h1 st1]|].
  - destruct R as [E S1]. rewrite E. f_equal. apply IH. exact S1.
  - destruct R as [x E]. rewrite E. reflexivity.
Qed.

Lemma InRange_cells lo hi d c : InRange lo hi d -> In c (cells d) -> (lo <= c < hi)%nat.
Proof.
  induction 1 as [|[k [b|c']] d V _ IH]; simpl; [intros [] | exact IH|].
  intros [<-|Hc]; [exact V | exact (IH Hc)].
Qed.

(* deepcopy_spec says where the copy lives; this says what it reads as *)
Lemma deepcopy_abs d : forall h h' d',
  deepcopy h d = (h', d') -> (forall c, In c (cells d) -> (c < length h)%nat) ->
  abs_dict h' d' = abs_dict h d /\ NoDup (cells d').
Proof.
  induction d as [|[k v] r IH]; intros h h' d' H RG; simpl in H.
  - inversion H; subst. split; [reflexivity | constructor].
  - destruct v as [b|c0].
    + destruct (deepcopy h r) as [h1 r1] eqn:E. inversion H; subst.
      destruct (IH _ _ _ E RG) as (A & B). simpl. rewrite A. split; [reflexivity | exact B].
    + unfold halloc in H. destruct (deepcopy (h ++ [hread h c0]) r) as [h2 r2] eqn:E. inversion H; subst.
      destruct (deepcopy_spec _ _ _ _ E) as (P & R).
      pose proof (last_length h (hread h c0)) as L1.
      destruct (IH _ _ _ E) as (A & B); [intros c Hc; specialize (RG c (or_intror Hc)); lia|].
      split.
      * simpl. rewrite A, abs_dict_app by (intros c Hc; apply RG; right; exact Hc).
        rewrite (hread_prefix _ _ _ P), hread_app_new by lia. reflexivity.
      * constructor; [intros X; apply (InRange_cells _ _ _ _ R) in X; lia | exact B].
Qed.

(* hs_init's default_state as the dict Directive.rs_init takes *)
Definition bools (ds : list (str * bool)) : dict := map (fun kv => (fst kv, VBool (snd kv))) ds.

Lemma fold_hset_abs h ds : forall g,
  abs_dict h (fold_left (fun d kv => hset (fst kv) (HBool (snd kv)) d) ds g) =
  fold_left (fun d kv => dset (fst kv) (snd kv) d) (bools ds) (abs_dict h g).
Proof.
  induction ds as [|[k b] r IH]; intros g; simpl; [reflexivity|]. rewrite IH. f_equal.
  symmetry. change (VBool b) with (abs_val h (HBool b)). apply dset_abs.
Qed.

(* the right-hand side is Directive.rs_init (bools ds) with abs_dict h defaults for DEFAULT_RUNTIME_STATE *)
Theorem hs_init_refines h defaults ds h' st :
  hs_init h defaults ds = (h', st) -> (forall c, In c (cells defaults) -> (c < length h)%nat) ->
  abs h' st = mkRS (fold_left (fun d kv => dset (fst kv) (snd kv) d) (bools ds) (abs_dict h defaults)) [] /\ Sep h' st.
Proof.
  unfold hs_init. destruct (deepcopy h defaults) as [h1 g] eqn:E. intros H RG. inversion H; subst.
  destruct (deepcopy_abs _ _ _ _ E RG) as (A & B). destruct (deepcopy_spec _ _ _ _ E) as (_ & R). split.
  - unfold abs. cbn [hs_global hs_inline]. rewrite fold_hset_abs, A. reflexivity.
  - apply (fold_left_inv (fun g => Sep h' (mkHS g []))); [intros g' kv _; apply (Sep_put_bool false)|].
    constructor; cbn [hs_global hs_inline cells]; rewrite app_nil_r; [exact B|].
    intros c Hc. apply (InRange_cells _ _ _ _ R) in Hc. lia.
Qed.

Definition run_trace (h : heap) (defaults : hdict) (ds : list (str * bool)) (parts : list (list heffect)) : list runstate :=
  let '(h', st) := hs_init h defaults ds in hs_trace h' st parts.

Theorem run_trace_pure h defaults ds parts :
  (forall c, In c (cells defaults) -> (c < length h)%nat) ->
  run_trace h defaults ds parts =
  p_trace (mkRS (fold_left (fun d kv => dset (fst kv) (snd kv) d) (bools ds) (abs_dict h defaults)) []) parts.
Proof.
  intros RG. unfold run_trace. destruct (hs_init h defaults ds) as [h' st] eqn:E.
  destruct (hs_init_refines _ _ _ _ _ E RG) as [A S]. rewrite (hs_trace_refines parts h' st S), A. reflexivity.
Qed.

(* the history wrote no cell of the defaults (default_contents_stable), so both sides are the pure trace from the same
   initial state *)
Theorem run_trace_independent_of_history hist h defaults ds parts :
  (forall c, In c (cells defaults) -> (c < length h)%nat) ->
  run_trace (exec_history h defaults hist) defaults ds parts = run_trace h defaults ds parts.
Proof.
  intros RG. rewrite !run_trace_pure.
  - rewrite (abs_dict_same_reads _ h defaults); [reflexivity|].
    intros c Hc. apply default_contents_stable, RG, Hc.
  - exact RG.
  - intros c Hc. pose proof (prefix_length _ _ (defaults_never_written hist h defaults)). specialize (RG c Hc). lia.
Qed.

(* non-vacuity: the real defaults (eleven flags, the REQUIRES set in cell 0) meet the hypotheses; a run that switches
   on an unmet REQUIRES leaves the next run's states untouched *)
Definition demo_defaults : hdict :=
  [ (K_DONT_ACCEPT_BLANKLINE, HBool false); (K_ELLIPSIS, HBool true); (K_IGNORE_WHITESPACE, HBool false);
    (K_IGNORE_EXCEPTION_DETAIL, HBool false); (K_NORMALIZE_WHITESPACE, HBool true); (K_IGNORE_WANT, HBool false);
    (K_NORMALIZE_REPR, HBool true); (K_REPORT_CDIFF, HBool false); (K_REPORT_NDIFF, HBool false);
    (K_REPORT_UDIFF, HBool true); (K_SKIP, HBool false); (K_REQUIRES, HSet 0%nat) ].
Example demo_defaults_ok :
  abs_dict [[]] demo_defaults = DEFAULT_RUNTIME_STATE /\
  (forall c, In c (cells demo_defaults) -> (c < length ([[]] : heap))%nat) /\
  let dirty := [([], [[HE_set false true K_REQUIRES [120%N]; HE_assign false K_SKIP true]])] in
  run_trace (exec_history [[]] demo_defaults dirty) demo_defaults [] [[HE_set true true K_REQUIRES [121%N]]]
  = run_trace [[]] demo_defaults [] [[HE_set true true K_REQUIRES [121%N]]].
Proof.
  split; [reflexivity|]. split; [intros c [<-|[]]; simpl; lia|]. vm_compute. reflexivity.
Qed.
