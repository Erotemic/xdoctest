(* CheckerProofs.v — check_output is the documented relation (Spec.MatchRel), and the two forms of it the other proofs
   start from: the core comparison of the normal forms when NORMALIZE_REPR is off, and acceptance of equal normal forms. *)
From XD Require Import Model.Checker Spec.MatchRel Proofs.BaseFacts Proofs.EllipsisProofs.
Open Scope N_scope.

Lemma is_empty_spec {A} (l : list A) : is_empty l = true <-> l = [].
Proof. destruct l; simpl; split; congruence. Qed.

Lemma check_match_iff fl g w : check_match fl g w = true <-> Core fl g w.
Proof.
  unfold check_match, Core. destruct (eqb_str g w) eqn:E.
  - apply eqb_str_spec in E. tauto.
  - apply eqb_str_false in E. destruct (ELLIPSIS fl).
    + rewrite ellipsis_match_iff. tauto.
    + split; [discriminate|]. intros [H|[H _]]; [contradiction|discriminate].
Qed.

Lemma check_match_false_iff fl g w : check_match fl g w = false <-> ~ Core fl g w.
Proof.
  rewrite <- check_match_iff. destruct (check_match fl g w); split; congruence.
Qed.

Lemma check_match_refl fl g : check_match fl g g = true.
Proof. unfold check_match. rewrite eqb_str_refl. reflexivity. Qed.

(* norm_repr computes the unique text allowed by Unquote *)
Lemma norm_repr_unquote fl a b : Unquote fl a b (norm_repr fl a b).
Proof.
  unfold norm_repr, Unquote.
  destruct (check_match fl a b) eqn:C0; [left; split; [apply check_match_iff, C0 | reflexivity]|].
  right. split; [apply check_match_false_iff, C0|].
  assert (Q : forall q, quoted_by q a && check_match fl (strip_outer a) b = true <->
                        quoted_by q a = true /\ Core fl (strip_outer a) b).
  { intros q. rewrite andb_true_iff, check_match_iff. reflexivity. }
  destruct (quoted_by QUOTE2 a && _) eqn:E2; [left; apply Q in E2; tauto | right].
  assert (N2 : ~ (quoted_by QUOTE2 a = true /\ Core fl (strip_outer a) b)) by (rewrite <- Q, E2; discriminate).
  destruct (quoted_by QUOTE1 a && _) eqn:E1; [left; apply Q in E1; tauto | right].
  split; [exact N2|]. split; [rewrite <- Q, E1; discriminate | reflexivity].
Qed.

Lemma unquote_unique fl a b x y : Unquote fl a b x -> Unquote fl a b y -> x = y.
Proof.
  unfold Unquote. intros Hx Hy.
  destruct Hx as [[C ->]|[NC Hx]]; destruct Hy as [[C' ->]|[NC' Hy]]; try tauto.
  destruct Hx as [(Q&C&->)|[(N2&Q&C&->)|(N2&N1&->)]];
    destruct Hy as [(Q'&C'&->)|[(N2'&Q'&C'&->)|(N2'&N1'&->)]]; tauto.
Qed.

Theorem check_output_iff fl got want :
  check_output fl got want = true <-> MatchRel fl got want.
Proof.
  unfold check_output, MatchRel.
  destruct (is_empty want) eqn:E0.
  { apply is_empty_spec in E0. tauto. }
  assert (Hw : want <> []) by (intro H; apply is_empty_spec in H; congruence).
  destruct (eqb_str got want) eqn:E1.
  { apply eqb_str_spec in E1. tauto. }
  apply eqb_str_false in E1.
  unfold normalize. fold (NGot fl got). fold (NWant fl want).
  destruct (NORMALIZE_REPR fl).
  - rewrite check_match_iff. split.
    + intros H. right. right.
      exists (norm_repr fl (NGot fl got) (NWant fl want)),
             (norm_repr fl (NWant fl want) (norm_repr fl (NGot fl got) (NWant fl want))).
      repeat split; try apply norm_repr_unquote. exact H.
    + intros [H|[H|(g' & w' & U1 & U2 & C)]]; try contradiction.
      pose proof (unquote_unique _ _ _ _ _ U1 (norm_repr_unquote fl (NGot fl got) (NWant fl want))) as ->.
      pose proof (unquote_unique _ _ _ _ _ U2 (norm_repr_unquote fl (NWant fl want) _)) as ->.
      exact C.
  - rewrite check_match_iff. tauto.
Qed.

Theorem check_output_identical fl t : check_output fl t t = true.
Proof.
  unfold check_output. destruct (is_empty t); [reflexivity|]. rewrite eqb_str_refl. reflexivity.
Qed.

Lemma check_output_no_repr fl got want :
  NORMALIZE_REPR fl = false ->
  (check_output fl got want = true <->
   want = [] \/ got = want \/ Core fl (NGot fl got) (NWant fl want)).
Proof. intros NR. rewrite check_output_iff. unfold MatchRel. rewrite NR. reflexivity. Qed.

Lemma Core_no_ellipsis fl g w : ELLIPSIS fl = false -> Core fl g w -> g = w.
Proof. intros E [H|[H _]]; congruence. Qed.

(* Core holds of the normal forms as they are, so under NORMALIZE_REPR both Unquote steps take their first branch *)
Lemma check_output_norm_eq fl got want : NGot fl got = NWant fl want -> check_output fl got want = true.
Proof.
  intros H. apply check_output_iff. right. right. rewrite <- H.
  assert (C : Core fl (NGot fl got) (NGot fl got)) by (left; reflexivity).
  destruct (NORMALIZE_REPR fl); [|exact C].
  exists (NGot fl got), (NGot fl got). repeat split; try exact C; left; auto.
Qed.

Definition all_off (fl : flags) : Prop :=
  ELLIPSIS fl = false /\ NORMALIZE_WHITESPACE fl = false /\ IGNORE_WHITESPACE fl = false /\
  NORMALIZE_REPR fl = false.

Lemma nonws_eq a b : a = b -> nonws a = nonws b.
Proof. congruence. Qed.
