(* DirectiveProofs.v — RuntimeState.update refines the scoping machine of Spec/Scoping.v; block and inline directives
   as one (rs_cur, rs_put). *)
From XD Require Import Model.Directive Spec.Scoping Proofs.BaseFacts.
Open Scope N_scope.

Lemma dget_dset k k' v d : dget k' (dset k v d) = if eqb_str k' k then Some v else dget k' d.
Proof.
  induction d as [|[k2 v2] d IH]; simpl; [reflexivity|].
  destruct (eqb_str k k2) eqn:E; simpl.
  - apply eqb_str_spec in E. subst k2. destruct (eqb_str k' k); reflexivity.
  - rewrite IH. destruct (eqb_str k' k2) eqn:E2, (eqb_str k' k) eqn:E1; try reflexivity.
    apply eqb_str_spec in E1, E2. subst. rewrite eqb_str_refl in E. discriminate.
Qed.

Lemma dget_dset_same k v d : dget k (dset k v d) = Some v.
Proof. rewrite dget_dset, eqb_str_refl. reflexivity. Qed.

Lemma dget_dset_other k k' v d : k <> k' -> dget k' (dset k v d) = dget k' d.
Proof. intros N. rewrite dget_dset. destruct (eqb_str k' k) eqn:E; [apply eqb_str_spec in E; congruence | reflexivity]. Qed.

Lemma dhas_dset_same k v d : dhas k (dset k v d) = true.
Proof. unfold dhas. rewrite dget_dset_same. reflexivity. Qed.

Lemma dset_dset k v1 v2 d : dset k v2 (dset k v1 d) = dset k v2 d.
Proof.
  induction d as [|[k' v'] d IH]; simpl.
  - rewrite eqb_str_refl. reflexivity.
  - destruct (eqb_str k k') eqn:E; simpl; rewrite ?eqb_str_refl, ?E; [reflexivity | rewrite IH; reflexivity].
Qed.

Lemma dset_Forall (P : str * value -> Prop) k v d : P (k, v) -> Forall P d -> Forall P (dset k v d).
Proof.
  intros V. induction 1 as [|[k' v'] d Hx Hd IH]; simpl; [repeat constructor; exact V|].
  destruct (eqb_str k k'); constructor; assumption.
Qed.

(* RuntimeState.__getitem__ without its KeyError test *)
Definition eff (rs : runstate) (k : str) : option value :=
  match dget k (rs_inline rs) with Some v => Some v | None => dget k (rs_global rs) end.

Definition req_of (v : option value) : list str := match v with Some (VSet s) => s | _ => [] end.

Definition view (rs : runstate) : astate := mkA (truthy (eff rs K_SKIP)) (req_of (eff rs K_REQUIRES)).
Definition gview (rs : runstate) : astate :=
  mkA (truthy (dget K_SKIP (rs_global rs))) (req_of (dget K_REQUIRES (rs_global rs))).

(* SKIP holds a bool and REQUIRES a set wherever present, and the persistent dict has both: so set.add / set.remove on
   REQUIRES never raise (rs_cur_req) *)
Record WF (rs : runstate) : Prop := mkWF {
  wf_skip_g : exists b, dget K_SKIP (rs_global rs) = Some (VBool b);
  wf_req_g : exists s, dget K_REQUIRES (rs_global rs) = Some (VSet s);
  wf_skip_i : forall v, dget K_SKIP (rs_inline rs) = Some v -> exists b, v = VBool b;
  wf_req_i : forall v, dget K_REQUIRES (rs_inline rs) = Some v -> exists s, v = VSet s
}.

Lemma rs_get_eff rs k : dhas k (rs_global rs) = true -> rs_get rs k = eff rs k.
Proof. unfold rs_get, eff. intros ->. reflexivity. Qed.

(* a directive of mode inl (true = inline) reads rs_cur inl, writes by rs_put inl and never touches rs_other inl;
   view_in true is view, view_in false is gview *)
Definition rs_cur (inl : bool) (rs : runstate) (k : str) : option value :=
  if inl then eff rs k else dget k (rs_global rs).
Definition rs_put (inl : bool) (k : str) (v : value) (rs : runstate) : runstate :=
  if inl then mkRS (rs_global rs) (dset k v (rs_inline rs)) else mkRS (dset k v (rs_global rs)) (rs_inline rs).
Definition rs_other (inl : bool) (rs : runstate) : dict := if inl then rs_global rs else rs_inline rs.
Definition view_in (inl : bool) (rs : runstate) : astate :=
  mkA (truthy (rs_cur inl rs K_SKIP)) (req_of (rs_cur inl rs K_REQUIRES)).

Lemma rs_cur_put inl k v rs k' : rs_cur inl (rs_put inl k v rs) k' = if eqb_str k' k then Some v else rs_cur inl rs k'.
Proof. destruct inl; unfold rs_cur, rs_put, eff; simpl; rewrite dget_dset; destruct (eqb_str k' k); reflexivity. Qed.

Lemma rs_other_put inl k v rs : rs_other inl (rs_put inl k v rs) = rs_other inl rs.
Proof. destruct inl; reflexivity. Qed.

Lemma rs_cur_req inl rs : WF rs -> exists s, rs_cur inl rs K_REQUIRES = Some (VSet s).
Proof.
  intros W. destruct inl; [|apply (wf_req_g _ W)]. unfold rs_cur, eff.
  destruct (dget K_REQUIRES (rs_inline rs)) eqn:I; [|apply (wf_req_g _ W)].
  destruct (wf_req_i _ W _ I) as [s ->]. exists s. reflexivity.
Qed.

Lemma WF_put inl k v rs :
  WF rs -> (k = K_SKIP -> exists b, v = VBool b) -> (k = K_REQUIRES -> exists s, v = VSet s) ->
  WF (rs_put inl k v rs).
Proof.
  intros [Sg Rg Si Ri] HS HR. destruct inl; constructor; simpl; try assumption.
  all: try intros w; rewrite dget_dset.
  - destruct (eqb_str K_SKIP k) eqn:E; [|apply Si]. apply eqb_str_spec in E. intros [= <-]. auto.
  - destruct (eqb_str K_REQUIRES k) eqn:E; [|apply Ri]. apply eqb_str_spec in E. intros [= <-]. auto.
  - destruct (eqb_str K_SKIP k) eqn:E; [|exact Sg]. apply eqb_str_spec in E. destruct HS as [b ->]; eauto.
  - destruct (eqb_str K_REQUIRES k) eqn:E; [|exact Rg]. apply eqb_str_spec in E. destruct HR as [s ->]; eauto.
Qed.

Lemma view_in_put_skip inl b rs : view_in inl (rs_put inl K_SKIP (VBool b) rs) = mkA b (a_pend (view_in inl rs)).
Proof. unfold view_in. rewrite !rs_cur_put. reflexivity. Qed.
Lemma view_in_put_req inl s rs : view_in inl (rs_put inl K_REQUIRES (VSet s) rs) = mkA (a_skip (view_in inl rs)) s.
Proof. unfold view_in. rewrite !rs_cur_put. reflexivity. Qed.
Lemma view_in_put_other inl k v rs : k <> K_SKIP -> k <> K_REQUIRES -> view_in inl (rs_put inl k v rs) = view_in inl rs.
Proof.
  intros NS NR. unfold view_in. rewrite !rs_cur_put.
  destruct (eqb_str K_SKIP k) eqn:ES; [apply eqb_str_spec in ES; congruence|].
  destruct (eqb_str K_REQUIRES k) eqn:ER; [apply eqb_str_spec in ER; congruence | reflexivity].
Qed.

(* apply_effect is used through these two equations only *)
Lemma apply_assign inl rs k v : apply_effect inl rs (mkEffect A_assign k v) = UOk (rs_put inl k v rs).
Proof. destruct inl; reflexivity. Qed.

Lemma apply_set_op inl rs (add : bool) k x :
  apply_effect inl rs (mkEffect (if add then A_set_add else A_set_remove) k (VSet [x])) =
  match rs_cur inl rs k with
  | Some (VSet s) => UOk (rs_put inl k (VSet (if add then set_add x s else set_remove x s)) rs)
  | Some (VBool _) => UErr U_AttributeError
  | None => UErr U_KeyError
  end.
Proof.
  unfold apply_effect, rs_cur, rs_put, eff, dhas. destruct inl.
  - (* inline: seeding the overlay, then setting it, is one dset *)
    destruct add; cbn [e_action e_key e_val].
    all: destruct (dget k (rs_inline rs)) as [[b|s]|] eqn:I; rewrite ?I; try reflexivity.
    all: destruct (dget k (rs_global rs)) as [[b|s]|]; try reflexivity.
    all: rewrite dget_dset_same, dset_dset; reflexivity.
  - destruct add; cbn [e_action e_key e_val]; destruct (dget k (rs_global rs)) as [[b|s]|]; reflexivity.
Qed.

Lemma rs_skips_view rs : WF rs -> negb (rs_skips rs) = a_runs (view rs).
Proof.
  intros W. destruct (wf_skip_g _ W) as [b Hb]. destruct (wf_req_g _ W) as [s Hs].
  unfold rs_skips, rs_flag, a_runs, view. simpl.
  rewrite !rs_get_eff by (unfold dhas; rewrite ?Hb, ?Hs; reflexivity).
  destruct (eff rs K_REQUIRES) as [[?|[|]]|], (truthy (eff rs K_SKIP)); reflexivity.
Qed.

(* what --options can express for flags *)
Definition BoolDefaults (ds : dict) : Prop :=
  forall k v, In (k, v) ds -> k <> K_REQUIRES /\ exists b, v = VBool b.

Lemma fold_defaults_wf ds : BoolDefaults ds -> forall rs, WF rs ->
  WF (mkRS (fold_left (fun d kv => dset (fst kv) (snd kv) d) ds (rs_global rs)) (rs_inline rs)).
Proof.
  intros H rs W. apply (fold_left_inv (fun g => WF (mkRS g (rs_inline rs)))); [|destruct rs; exact W].
  intros g [k v] Hin Wg. destruct (H k v Hin) as [N [b ->]].
  apply (WF_put false k (VBool b) (mkRS g (rs_inline rs))); [exact Wg | eauto | intros ->; contradiction].
Qed.

Lemma map_res_ok {A B} (f : A -> res B) (g : A -> B) l :
  (forall x, f x = Ok (g x)) -> map_res f l = Ok (map g l).
Proof. intros H. induction l as [|x r IH]; simpl; [reflexivity|]. rewrite H, IH. reflexivity. Qed.

Section Refine.
Variable met : str -> bool.
Notation met' := (fun x : str => @Ok bool (met x)).

Lemma requires_view inl (positive : bool) (args : list str) : forall rs, WF rs ->
  exists rs', apply_effects inl rs
                (map (fun arg => mkEffect (if met arg then A_noop else if positive then A_set_add else A_set_remove)
                                          K_REQUIRES (VSet [arg])) args) = UOk rs' /\
              WF rs' /\ rs_other inl rs' = rs_other inl rs /\
              view_in inl rs' = mkA (a_skip (view_in inl rs)) (a_requires met positive args (a_pend (view_in inl rs))).
Proof.
  induction args as [|x r IH]; intros rs W; cbn [map apply_effects a_requires].
  - exists rs. repeat apply conj; try assumption; reflexivity.
  - destruct (met x); [exact (IH rs W)|].
    destruct (rs_cur_req inl rs W) as [s Hs]. rewrite apply_set_op, Hs.
    destruct (IH (rs_put inl K_REQUIRES (VSet (if positive then set_add x s else set_remove x s)) rs)) as (rs' & A & B & C & D);
      [apply WF_put; [exact W | intros [=] | eauto]|].
    exists rs'. rewrite rs_other_put, view_in_put_req in *. repeat apply conj; try assumption.
    rewrite D. replace (a_pend (view_in inl rs)) with s by (cbn; rewrite Hs; reflexivity). reflexivity.
Qed.

Lemma directive_view d rs : WF rs -> Scoped d ->
  exists es rs', effects met' d = Ok es /\ apply_effects (d_inline d) rs es = UOk rs' /\
                 WF rs' /\ rs_other (d_inline d) rs' = rs_other (d_inline d) rs /\
                 view_in (d_inline d) rs' = a_apply met (view_in (d_inline d) rs) d.
Proof.
  intros W Sc. unfold effects, a_apply.
  destruct (eqb_str (d_name d) K_REQUIRES) eqn:ER.
  - apply eqb_str_spec in ER. rewrite ER. cbn [eqb_str K_REQUIRES K_SKIP].
    erewrite map_res_ok by (intros; reflexivity).
    destruct (requires_view (d_inline d) (d_positive d) (d_args d) rs W) as (rs' & A). eauto.
  - rewrite Sc. apply eqb_str_false in ER.
    eexists. eexists. split; [reflexivity|]. cbn [apply_effects]. rewrite apply_assign.
    repeat apply conj; [reflexivity | | apply rs_other_put |].
    + apply WF_put; [exact W | eauto | contradiction].
    + destruct (eqb_str (d_name d) K_SKIP) eqn:ES.
      * apply eqb_str_spec in ES. rewrite ES. apply view_in_put_skip.
      * apply eqb_str_false in ES. apply view_in_put_other; assumption.
Qed.

Lemma update_go_view inl ds : forall rs, WF rs ->
  (forall d, In d ds -> d_inline d = inl /\ Scoped d) ->
  exists rs', update_go met' rs ds = UOk rs' /\ WF rs' /\ rs_other inl rs' = rs_other inl rs /\
              view_in inl rs' = fold_left (a_apply met) ds (view_in inl rs).
Proof.
  induction ds as [|d ds IH]; intros rs W H; simpl.
  - exists rs. repeat apply conj; try assumption; reflexivity.
  - destruct (H d (or_introl eq_refl)) as [<- Sc].
    destruct (directive_view d rs W Sc) as (es & rs1 & -> & -> & W1 & O1 & V1).
    destruct (IH rs1 W1) as (rs' & U & W' & O' & V'); [intros d' Hd'; apply H; right; exact Hd'|].
    exists rs'. repeat apply conj; try assumption; congruence.
Qed.

Lemma view_no_overlay g : view (mkRS g []) = gview (mkRS g []).
Proof. reflexivity. Qed.

Lemma gview_eq rs b s :
  dget K_SKIP (rs_global rs) = Some (VBool b) -> dget K_REQUIRES (rs_global rs) = Some (VSet s) ->
  gview rs = mkA b s.
Proof. intros A B. unfold gview. rewrite A, B. reflexivity. Qed.

Lemma WF_clear rs : WF rs -> WF (mkRS (rs_global rs) []).
Proof. intros W. constructor; simpl; [apply (wf_skip_g _ W) | apply (wf_req_g _ W) | discriminate | discriminate]. Qed.

Lemma rs_update_view rs ds : WF rs -> Uniform ds -> (forall d, In d ds -> Scoped d) ->
  exists rs', rs_update met' rs ds = UOk rs' /\ WF rs' /\
              if is_inline ds then rs_global rs' = rs_global rs /\ view rs' = fold_left (a_apply met) ds (gview rs)
              else rs_inline rs' = [] /\ gview rs' = fold_left (a_apply met) ds (gview rs).
Proof.
  intros W U Sc.
  destruct (update_go_view (is_inline ds) ds (mkRS (rs_global rs) []) (WF_clear rs W)) as (rs' & A & B & C & D).
  { intros d Hd. split; [exact (U d Hd) | exact (Sc d Hd)]. }
  exists rs'. split; [exact A|]. split; [exact B|].
  destruct (is_inline ds); split; assumption.
Qed.

Theorem rs_update_refines rs ds :
  WF rs -> Uniform ds -> (forall d, In d ds -> Scoped d) ->
  exists rs', rs_update met' rs ds = UOk rs' /\ WF rs' /\
              gview rs' = fst (a_part met (gview rs) ds) /\
              negb (rs_skips rs') = snd (a_part met (gview rs) ds).
Proof.
  intros W U Sc. destruct (rs_update_view rs ds W U Sc) as (rs' & A & B & C).
  exists rs'. rewrite (rs_skips_view rs' B). unfold a_part. cbn [fst snd].
  split; [exact A|]. split; [exact B|]. destruct (is_inline ds), C as [C <-].
  - split; [unfold gview; rewrite C|]; reflexivity.
  - (* block: the overlay is empty *)
    split; [|unfold view, eff; rewrite C]; reflexivity.
Qed.

End Refine.

(* defaults as a leading block directive; `_ => true` is unreachable under BoolDefaults *)
Definition dirs_of_defaults (ds : dict) : list directive :=
  map (fun kv => mkDirective (fst kv) (match snd kv with VBool b => b | _ => true end) [] false) ds.

Lemma defaults_go requires_met d : BoolDefaults d ->
  (forall k v, In (k, v) d -> starts_with K_REPORT_ k = false) ->
  forall g, update_go requires_met (mkRS g []) (dirs_of_defaults d) =
            UOk (mkRS (fold_left (fun d kv => dset (fst kv) (snd kv) d) d g) []).
Proof.
  induction d as [|[k v] d IH]; intros HB HR g; [reflexivity|].
  pose proof (HR k v (or_introl eq_refl)) as E2.
  destruct (HB k v (or_introl eq_refl)) as [N [b ->]]. apply eqb_str_false in N.
  unfold dirs_of_defaults. cbn [map update_go fst snd]. unfold effects. cbn [d_name d_positive d_inline d_args].
  rewrite N, E2. cbn [apply_effects]. rewrite apply_assign.
  apply IH; intros k' v' H; [apply HB | apply (HR k' v')]; right; exact H.
Qed.
