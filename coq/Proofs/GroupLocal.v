(* GroupLocal.v — _group_labeled_lines: no line lost (group_lines_partition), chunks of one class
   (group_lines_labelled), cut where the class changes and no want follows (group_lines_cut).  C13, C18. *)
From XD Require Import Model.Parser Spec.Partition.
Local Open Scope nat_scope.

Inductive lclass := KText | KSrc | KWant.
Definition class_of (l : label) : lclass :=
  match l with TEXT => KText | DSRC | DCNT => KSrc | WANT => KWant end.

Definition AllClass (k : lclass) (items : list (label * str)) : Prop :=
  Forall (fun it => class_of (fst it) = k) items.

Lemma label_eqb_eq a b : label_eqb a b = true <-> a = b.
Proof. destruct a, b; cbn; split; intros H; try reflexivity; try discriminate. Qed.

Lemma last_app_ne {A} (a b : list A) d : b <> [] -> last (a ++ b) d = last b d.
Proof.
  intros NE. induction a as [|x a IH]; [reflexivity|]. cbn [app].
  destruct (a ++ b) eqn:E; [apply app_eq_nil in E; destruct E; contradiction|]. cbn [last]. exact IH.
Qed.

Lemma last_in_ne {A} (l : list A) d : l <> [] -> In (last l d) l.
Proof.
  intros NE. destruct (exists_last NE) as (l' & z & ->). rewrite last_last. apply in_or_app. right. left. reflexivity.
Qed.

Definition group : Type := label * list (label * str).
Definition glines (gs : list group) : list (label * str) := concat (map snd gs).
Definition GroupOK (g : group) : Prop := AllClass (class_of (fst g)) (snd g) /\ snd g <> [].

Lemma group_nonempty (G : list group) : Forall GroupOK G -> Forall (fun x => snd x <> []) G.
Proof. intros H. eapply Forall_impl; [|exact H]. intros g [_ NE]. exact NE. Qed.

Lemma last_group_class (G : list group) ll a : Forall GroupOK G -> glines G = ll ++ [a] ->
  exists G' ga, G = G' ++ [ga] /\ snd ga <> [] /\ class_of (fst ga) = class_of (fst a).
Proof.
  intros HG L. assert (NE : G <> []) by (intros ->; destruct ll; discriminate).
  destruct (exists_last NE) as (G' & ga & ->). exists G', ga.
  apply Forall_app in HG. destruct HG as [_ HG]. inversion HG as [|? ? [Fg NEg] _]; subst.
  split; [reflexivity|]. split; [exact NEg|].
  unfold glines in L. rewrite map_app, concat_app in L. cbn [map concat] in L. rewrite app_nil_r in L.
  apply (f_equal (fun l => last l a)) in L. rewrite last_last, last_app_ne in L by exact NEg. rewrite <- L.
  unfold AllClass in Fg. rewrite Forall_forall in Fg. symmetry. apply Fg, last_in_ne, NEg.
Qed.

(* Passes 1 and 2 scan with one open group: an element joins it, or closes it and opens its own, as `opens` decides
   from the labels before, at and after it.  An empty group open at the end is not emitted. *)
Section Regroup.
Context {X : Type} (lab : X -> label) (body : X -> list (label * str)).
Variable opens : option label -> label -> option label -> bool.

Definition next_label (xs : list X) : option label := match xs with r :: _ => Some (lab r) | [] => None end.

(* left: the label of the element before xs; cur: the open group *)
Fixpoint regroup (left : option label) (xs : list X) (cur : option group) : list group :=
  match xs with
  | [] => match cur with Some (s, (_ :: _) as b) => [(s, b)] | _ => [] end
  | mid :: rest =>
      match cur with
      | Some g =>
          if opens left (lab mid) (next_label rest) then g :: regroup (Some (lab mid)) rest (Some (lab mid, body mid))
          else regroup (Some (lab mid)) rest (Some (fst g, snd g ++ body mid))
      | None => regroup (Some (lab mid)) rest (Some (lab mid, body mid))
      end
  end.

Lemma regroup_nil left cur :
  regroup left [] cur = match cur with Some (s, (_ :: _) as b) => [(s, b)] | _ => [] end.
Proof. reflexivity. Qed.

Lemma regroup_cons left mid rest cur :
  regroup left (mid :: rest) cur =
  match cur with
  | Some g =>
      if opens left (lab mid) (next_label rest) then g :: regroup (Some (lab mid)) rest (Some (lab mid, body mid))
      else regroup (Some (lab mid)) rest (Some (fst g, snd g ++ body mid))
  | None => regroup (Some (lab mid)) rest (Some (lab mid, body mid))
  end.
Proof. reflexivity. Qed.

Lemma regroup_lines xs : forall left cur,
  glines (regroup left xs cur) = match cur with Some g => snd g | None => [] end ++ concat (map body xs).
Proof.
  induction xs as [|mid rest IH]; intros left cur.
  - rewrite regroup_nil. destruct cur as [[s [|b bs]]|]; cbn; rewrite ?app_nil_r; reflexivity.
  - rewrite regroup_cons. cbn [map concat]. unfold glines in *.
    destruct cur as [g|]; [destruct (opens _ _ _)|]; cbn [map concat]; rewrite IH; cbn [snd].
    + reflexivity.
    + symmetry. apply app_assoc.
    + reflexivity.
Qed.

Lemma regroup_head xs : forall left g, snd g <> [] ->
  exists b r, b <> [] /\ regroup left xs (Some g) = ((fst g, b) : group) :: r.
Proof.
  induction xs as [|mid rest IH]; intros left [s b] NE; cbn [fst snd] in *.
  - rewrite regroup_nil. exists b, []. destruct b; [contradiction | split; [discriminate | reflexivity]].
  - rewrite regroup_cons. destruct (opens _ _ _); [exists b; eexists; split; [exact NE | reflexivity]|].
    apply (IH _ (s, b ++ body mid)). cbn [snd]. destruct b; [contradiction | discriminate].
Qed.

Lemma regroup_fresh_head left x xs : body x <> [] ->
  exists b r, b <> [] /\ regroup left (x :: xs) None = ((lab x, b) : group) :: r.
Proof. intros NE. rewrite regroup_cons. apply (regroup_head xs _ (lab x, body x)). exact NE. Qed.

(* the scan can be cut between a and y (regroup_app) *)
Definition Boundary (a y : label) : Prop :=
  (forall r, opens (Some a) y r = true) /\ forall l, opens l a (Some y) = opens l a None.

Lemma regroup_app a y ys : body a <> [] -> Boundary (lab a) (lab y) -> forall xs left cur,
  regroup left (xs ++ a :: y :: ys) cur = regroup left (xs ++ [a]) cur ++ regroup None (y :: ys) None.
Proof.
  intros NE [Hy Ha]. induction xs as [|x xs IH]; intros left cur.
  - (* y closes the group that a is in *)
    assert (K : forall g, snd g <> [] ->
                regroup (Some (lab a)) (y :: ys) (Some g) = regroup (Some (lab a)) [] (Some g) ++ regroup None (y :: ys) None).
    { intros [s b] NEb. rewrite !regroup_cons, regroup_nil, Hy. destruct b; [contradiction | reflexivity]. }
    cbn [app]. rewrite (regroup_cons left a (y :: ys)), (regroup_cons left a []). cbn [next_label]. rewrite Ha.
    destruct cur as [g|]; [destruct (opens _ _ _)|]; cbn [app]; rewrite K; try reflexivity; try exact NE.
    cbn [snd]. destruct (snd g); [exact NE | discriminate].
  - cbn [app]. rewrite !regroup_cons.
    assert (N : next_label (xs ++ a :: y :: ys) = next_label (xs ++ [a])) by (destruct xs; reflexivity).
    rewrite N. destruct cur as [g|]; [destruct (opens _ _ _)|]; cbn [app]; rewrite IH; reflexivity.
Qed.

(* holds of opens1 and opens2 *)
Hypothesis joins_class : forall l m r, opens (Some l) m r = false -> class_of l = class_of m.

Lemma regroup_class xs : forall left cur, Forall (fun x => GroupOK (lab x, body x)) xs ->
  (forall g, cur = Some g -> GroupOK g /\ exists l, left = Some l /\ class_of l = class_of (fst g)) ->
  Forall GroupOK (regroup left xs cur).
Proof.
  induction xs as [|mid rest IH]; intros left cur HX HC.
  - rewrite regroup_nil. destruct cur as [[s [|b bs]]|]; constructor; [|constructor]. apply (HC _ eq_refl).
  - rewrite regroup_cons. inversion HX as [|? ? [Fm NEm] Hr]; subst. cbn [fst snd] in Fm, NEm.
    assert (K : Forall GroupOK (regroup (Some (lab mid)) rest (Some (lab mid, body mid)))).
    { apply IH; [exact Hr|]. intros g E. inversion E; subst g. split; [split; assumption|]. exists (lab mid). split; reflexivity. }
    destruct cur as [g|]; [|exact K]. destruct (HC g eq_refl) as ([Fg NEg] & l & -> & Cl).
    destruct (opens _ _ _) eqn:O; [constructor; [split; assumption | exact K]|].
    apply joins_class in O. apply IH; [exact Hr|]. intros g' E. inversion E; subst g'. unfold GroupOK, AllClass. cbn [fst snd]. split.
    + split; [|destruct (snd g); [contradiction | discriminate]].
      apply Forall_app. split; [exact Fg|]. rewrite <- Cl, O. exact Fm.
    + exists (lab mid). split; [reflexivity | congruence].
Qed.

End Regroup.

Definition opens1 (left : option label) (m : label) (right : option label) : bool :=
  (negb (olabel_eqb left (Some m)) || (label_eqb m DSRC && is_lab DCNT right))
  && negb (is_lab DSRC left && label_eqb m DCNT).
Definition opens2 (left : option label) (m : label) (right : option label) : bool :=
  negb (olabel_eqb left (Some m) && negb (is_lab WANT right)).

Lemma opens1_class l m r : opens1 (Some l) m r = false -> class_of l = class_of m.
Proof. destruct l, m, r as [[]|]; cbn; congruence. Qed.
Lemma opens2_class l m r : opens2 (Some l) m r = false -> class_of l = class_of m.
Proof. destruct l, m; cbn; congruence. Qed.

Lemma opens1_boundary x y : class_of x <> class_of y -> Boundary opens1 x y.
Proof.
  intros H. split; [intros r; destruct x, y, r as [[]|] | intros l; destruct l as [[]|], x, y];
    cbn; try reflexivity; contradiction H; reflexivity.
Qed.
Lemma opens2_boundary x y : class_of x <> class_of y -> y <> WANT -> Boundary opens2 x y.
Proof.
  intros H W. split; [intros r; destruct x, y; cbn; try reflexivity; contradiction H
                     | intros l; destruct y; cbn; try reflexivity; contradiction W]; reflexivity.
Qed.

Definition one (x : label * str) : list (label * str) := [x].
Definition groups1 (ll : list (label * str)) : list group := regroup fst one opens1 None ll None.
Definition groups2 (gs : list group) : list group := regroup fst snd opens2 None gs None.

(* pass 1 keeps the open group reversed *)
Lemma pass1_regroup items : forall left s cur,
  pass1 left items (Some s) cur = regroup fst one opens1 left items (Some (s, rev cur)).
Proof.
  induction items as [|mid rest IH]; intros left s cur; cbn [pass1 regroup].
  - destruct cur as [|c cur]; [reflexivity|]. cbn [rev].
    destruct (rev cur ++ [c]) eqn:E; [apply app_eq_nil in E; destruct E; discriminate | reflexivity].
  - unfold opens1, next_label. destruct (_ && _); rewrite IH; reflexivity.
Qed.

Lemma pass1_groups1 items : pass1 None items None [] = groups1 items.
Proof. destruct items as [|mid rest]; [reflexivity|]. apply (pass1_regroup rest _ _ [mid]). Qed.

Lemma pass2_regroup groups : forall s cur,
  pass2 (Some s) groups (Some s) cur = regroup fst snd opens2 (Some s) groups (Some (s, cur)).
Proof.
  induction groups as [|mid rest IH]; intros s cur; cbn [pass2 regroup].
  - destruct cur; reflexivity.
  - unfold opens2. fold (next_label (@fst label (list (label * str))) rest).
    destruct (olabel_eqb (Some s) (Some (fst mid)) && _) eqn:J; cbn [negb]; [|rewrite IH; reflexivity].
    apply andb_true_iff in J. destruct J as [J _]. apply label_eqb_eq in J. rewrite <- J. apply IH.
Qed.

Lemma pass2_groups2 groups : pass2 None groups None [] = groups2 groups.
Proof. destruct groups as [|mid rest]; [reflexivity|]. apply pass2_regroup. Qed.

Lemma group_lines_groups ll : group_lines ll = pass3 (groups2 (groups1 ll)) None.
Proof. unfold group_lines. rewrite pass1_groups1, pass2_groups2. reflexivity. Qed.

Lemma groups1_lines ll : glines (groups1 ll) = ll.
Proof.
  unfold groups1. rewrite regroup_lines. cbn [app].
  induction ll as [|x ll IH]; [reflexivity|]. cbn [map concat one app]. rewrite IH. reflexivity.
Qed.
Lemma groups2_lines gs : glines (groups2 gs) = glines gs.
Proof. unfold groups2. rewrite regroup_lines. reflexivity. Qed.

Lemma groups1_class ll : Forall GroupOK (groups1 ll).
Proof.
  apply (regroup_class _ _ _ opens1_class); [|discriminate].
  apply Forall_forall. intros x _. split; [repeat constructor | discriminate].
Qed.
Lemma groups2_class gs : Forall GroupOK gs -> Forall GroupOK (groups2 gs).
Proof.
  intros H. apply (regroup_class _ _ _ opens2_class); [|discriminate].
  eapply Forall_impl; [|exact H]. intros [s b] K. exact K.
Qed.

Lemma groups1_head y B : exists b r, b <> [] /\ groups1 (y :: B) = ((fst y, b) : group) :: r.
Proof. apply (regroup_fresh_head fst one). discriminate. Qed.
Lemma groups2_head (g : group) G : snd g <> [] -> exists b r, b <> [] /\ groups2 (g :: G) = ((fst g, b) : group) :: r.
Proof. apply (regroup_fresh_head fst snd). Qed.

Lemma groups1_app A a y B : class_of (fst a) <> class_of (fst y) ->
  groups1 (A ++ a :: y :: B) = groups1 (A ++ [a]) ++ groups1 (y :: B).
Proof.
  intros HC. apply (regroup_app fst one); [discriminate | apply opens1_boundary, HC].
Qed.

Lemma groups2_app G (ga g : group) G' : snd ga <> [] -> class_of (fst ga) <> class_of (fst g) -> fst g <> WANT ->
  groups2 (G ++ ga :: g :: G') = groups2 (G ++ [ga]) ++ groups2 (g :: G').
Proof.
  intros NE HC HW. apply (regroup_app fst snd); [exact NE | apply opens2_boundary; assumption].
Qed.

Inductive lchunk :=
| LText (items : list (label * str))
| LCode (src want : list (label * str)).
Definition forget (c : lchunk) : chunk :=
  match c with LText t => TextChunk (map snd t) | LCode s w => CodeChunk (map snd s) (map snd w) end.
Definition litems (c : lchunk) : list (label * str) :=
  match c with LText t => t | LCode s w => s ++ w end.
Definition LChunkOK (c : lchunk) : Prop :=
  match c with
  | LText t => AllClass KText t
  | LCode s w => AllClass KSrc s /\ AllClass KWant w /\ s <> []
  end.

Definition res_map {A B} (f : A -> B) (r : res A) : res B :=
  match r with Ok x => Ok (f x) | Err e => Err e end.

(* cs are chunks cut out of items, in order, each of one kind *)
Definition Labelled (cs : list chunk) (items : list (label * str)) : Prop :=
  exists lcs, cs = map forget lcs /\ concat (map litems lcs) = items /\ Forall LChunkOK lcs.

Lemma Labelled_nil : Labelled [] [].
Proof. exists []. repeat split. constructor. Qed.

Lemma Labelled_cons c cs items : LChunkOK c -> Labelled cs items -> Labelled (forget c :: cs) (litems c ++ items).
Proof. intros H (lcs & -> & <- & K). exists (c :: lcs). repeat split. constructor; assumption. Qed.

Lemma Labelled_source p cs items : AllClass KSrc p -> p <> [] -> Labelled cs items ->
  Labelled (CodeChunk (map snd p) [] :: cs) (p ++ items).
Proof.
  intros A B K. apply (Labelled_cons (LCode p [])) in K; [|repeat split; [exact A | constructor | exact B]].
  cbn [litems] in K. rewrite app_nil_r in K. exact K.
Qed.

Lemma Labelled_lines cs items : Labelled cs items -> flatten_chunks cs = map snd items.
Proof.
  intros (lcs & -> & <- & _). unfold flatten_chunks. induction lcs as [|c lcs IH]; [reflexivity|].
  cbn [map concat]. rewrite IH, map_app. f_equal. destruct c as [t|s w]; [reflexivity | symmetry; apply map_app].
Qed.

(* prev: the pending source group *)
Lemma pass3_labelled : forall groups prev cs,
  Forall GroupOK groups -> match prev with Some p => AllClass KSrc p /\ p <> [] | None => True end ->
  pass3 groups (option_map (map snd) prev) = Ok cs ->
  Labelled cs (match prev with Some p => p | None => [] end ++ glines groups).
Proof.
  induction groups as [|[state group] rest IH]; intros prev cs HG HP H.
  - cbn [pass3] in H. destruct prev as [[|p ps]|]; cbn in H; inversion H; subst; try apply Labelled_nil.
    destruct HP as [A B]. apply (Labelled_source (p :: ps)); [exact A | exact B | apply Labelled_nil].
  - inversion HG as [|? ? [Fg NEg] Hr]; subst. cbn [fst snd] in Fg, NEg. cbn [pass3] in H.
    unfold glines. cbn [map concat snd]. fold (glines rest).
    assert (FL : forall r items, Labelled r items ->
                 Labelled (match option_map (map snd) prev with Some p => [CodeChunk p []] | None => [] end ++ r)
                          (match prev with Some p => p | None => [] end ++ items)).
    { intros r items K. destruct prev as [p|]; [|exact K]. destruct HP as [A B]. apply Labelled_source; assumption. }
    destruct state.
    2-3: (* DSRC, DCNT: the group becomes the pending source *)
      destruct (pass3 rest (Some (map snd group))) as [r|e] eqn:R; cbn [bind] in H; [|discriminate]; inversion H; subst cs;
      apply FL; apply (IH (Some group)); [exact Hr | exact (conj Fg NEg) | exact R].
    + destruct (pass3 rest None) as [r|e] eqn:R; cbn [bind] in H; [|discriminate]. inversion H; subst cs.
      apply FL. apply (Labelled_cons (LText group)); [exact Fg|]. apply (IH None); [exact Hr | exact I | exact R].
    + destruct prev as [p|]; cbn [option_map] in H; [|discriminate]. destruct HP as [A B].
      destruct (pass3 rest None) as [r|e] eqn:R; cbn [bind] in H; [|discriminate]. inversion H; subst cs.
      rewrite app_assoc. apply (Labelled_cons (LCode p group)); [repeat split; assumption|].
      apply (IH None); [exact Hr | exact I | exact R].
Qed.

Theorem group_lines_labelled ll gs : group_lines ll = Ok gs -> Labelled gs ll.
Proof.
  rewrite group_lines_groups. intros H.
  apply (pass3_labelled _ None) in H; [|apply groups2_class, groups1_class | exact I].
  cbn [app] in H. rewrite groups2_lines, groups1_lines in H. exact H.
Qed.

Theorem group_lines_partition ll gs :
  group_lines ll = Ok gs -> flatten_chunks gs = map snd ll.
Proof. intros H. apply Labelled_lines, group_lines_labelled, H. Qed.

(* a chunk of a labelling with no TEXT line: its source lines satisfy P; the only text chunk possible is the empty
   one, which Labelled does not exclude *)
Definition RunChunk (P : str -> Prop) (c : chunk) : Prop :=
  match c with TextChunk ls => ls = [] | CodeChunk s _ => s <> [] /\ Forall P s end.

Lemma group_lines_run P ll gs : group_lines ll = Ok gs ->
  Forall (fun x => fst x <> TEXT /\ P (snd x)) ll -> Forall (RunChunk P) gs.
Proof.
  intros G H. destruct (group_lines_labelled ll gs G) as (lcs & -> & <- & HC).
  apply Forall_concat in H. rewrite Forall_map in *. rewrite Forall_forall in *.
  intros c Hc. specialize (H c Hc). specialize (HC c Hc). destruct c as [t|s w]; cbn in *.
  - destruct t as [|x t]; [reflexivity|]. inversion H as [|? ? [Hx _] _]. inversion HC as [|? ? Kx _].
    destruct (fst x); try discriminate. contradiction.
  - destruct HC as (_ & _ & NE). apply Forall_app in H. destruct H as [Hs _]. split.
    + destruct s; [contradiction | discriminate].
    + rewrite Forall_map. eapply Forall_impl; [|exact Hs]. intros x [_ Px]. exact Px.
Qed.

(* both succeed: the lists appended; else the left error first *)
Definition both {A} (r1 r2 : res (list A)) : res (list A) :=
  match r1 with
  | Err e => Err e
  | Ok a => match r2 with Err e => Err e | Ok b => Ok (a ++ b) end
  end.

(* prev <> Some []: pass 3 drops an empty pending source at the end (`if prev_source:`) but emits CodeChunk [] [] for
   it in the middle *)
Lemma pass3_app : forall GA prev (g : group) GB',
  Forall (fun x => snd x <> []) GA -> prev <> Some [] -> fst g <> WANT ->
  pass3 (GA ++ g :: GB') prev = both (pass3 GA prev) (pass3 (g :: GB') None).
Proof.
  induction GA as [|[st grp] GA IH]; intros prev g GB' HNE P HW.
  - (* g flushes a pending source *)
    destruct g as [[] gi]; try (contradiction HW; reflexivity); cbn [app pass3];
      destruct (pass3 GB' _) as [r|e]; cbn [bind both]; destruct prev as [[|p ps]|]; try reflexivity; contradiction P; reflexivity.
  - inversion HNE as [|? ? Hg Hr]; subst. cbn [snd] in Hg.
    assert (NB : Some (map snd grp) <> Some []) by (destruct grp; [contradiction | discriminate]).
    pose proof (fun prev' H => IH prev' g GB' Hr H HW) as IH'. clear IH.
    set (R2 := pass3 (g :: GB') None) in *. clearbody R2.
    change (((st, grp) :: GA) ++ g :: GB') with ((st, grp) :: GA ++ g :: GB'). cbn [pass3]. destruct st.
    1-3: (* TEXT, DSRC, DCNT *) rewrite IH' by (discriminate || exact NB);
      destruct (pass3 GA _), R2; cbn [bind both]; rewrite <- ?app_assoc; reflexivity.
    destruct prev as [p|]; [|reflexivity]. rewrite IH' by discriminate. destruct (pass3 GA None), R2; reflexivity.
Qed.

Theorem group_lines_app A (yi : label * str) B' d :
  A <> [] -> class_of (fst (last A d)) <> class_of (fst yi) -> fst yi <> WANT ->
  group_lines (A ++ yi :: B') = both (group_lines A) (group_lines (yi :: B')).
Proof.
  intros NE HC HW. rewrite !group_lines_groups.
  destruct (exists_last NE) as (A' & a & ->). rewrite last_last in HC. rewrite <- app_assoc. cbn [app].
  (* pass 1, then pass 2, splits between a and yi *)
  rewrite (groups1_app A' a yi B' HC).
  destruct (last_group_class _ A' a (groups1_class _) (groups1_lines _)) as (G & ga & EG & NEa & Ca). rewrite EG.
  destruct (groups1_head yi B') as (b1 & r1 & NEb & E1). rewrite E1.
  rewrite <- app_assoc. cbn [app]. rewrite groups2_app; [| exact NEa | rewrite Ca; exact HC | exact HW].
  destruct (groups2_head (fst yi, b1) r1 NEb) as (b2 & r2 & _ & E2). rewrite E2.
  apply pass3_app; [|discriminate | exact HW].
  apply group_nonempty, groups2_class. rewrite <- EG. apply groups1_class.
Qed.

(* between A and B every pass of the grouping breaks: the classes differ there, and B does not open with a want (which
   pass 3 would hand to the group before) *)
Definition Cut (A B : list (label * str)) : Prop :=
  match B, A with
  | b :: _, _ :: _ => fst b <> WANT /\ forall d, class_of (fst (last A d)) <> class_of (fst b)
  | _, _ => True
  end.

Lemma group_lines_cut A B : Cut A B -> group_lines (A ++ B) = both (group_lines A) (group_lines B).
Proof.
  intros HC. destruct A as [|a A'].
  - cbn [app]. change (group_lines []) with (@Ok (list chunk) []). destruct (group_lines B); reflexivity.
  - destruct B as [|b B'].
    + rewrite app_nil_r. change (group_lines []) with (@Ok (list chunk) []).
      destruct (group_lines (a :: A')); cbn [both]; rewrite ?app_nil_r; reflexivity.
    + destruct HC as [HW HC]. apply (group_lines_app (a :: A') b B' (TEXT, [])); [discriminate | apply HC | exact HW].
Qed.

Lemma groups1_text_run : forall T b, AllClass KText T -> b <> [] ->
  regroup fst one opens1 (Some TEXT) T (Some (TEXT, b)) = [(TEXT, b ++ T)].
Proof.
  induction T as [|t T IH]; intros b HT NE.
  - rewrite regroup_nil, app_nil_r. destruct b; [contradiction | reflexivity].
  - inversion HT as [|? ? Ht Hr]; subst.
    assert (Et : fst t = TEXT) by (destruct (fst t); cbn in Ht; try discriminate; reflexivity).
    rewrite regroup_cons, Et. cbn [opens1 olabel_eqb label_eqb is_lab negb orb andb fst snd].
    rewrite IH; [rewrite <- app_assoc; reflexivity | exact Hr | destruct b; discriminate].
Qed.

Theorem group_lines_text (t : label * str) T : AllClass KText (t :: T) ->
  group_lines (t :: T) = Ok [TextChunk (map snd (t :: T))].
Proof.
  intros H. inversion H as [|? ? Ht Hr]; subst.
  assert (Et : fst t = TEXT) by (destruct (fst t); cbn in Ht; try discriminate; reflexivity).
  rewrite group_lines_groups. unfold groups1. rewrite regroup_cons, Et.
  rewrite groups1_text_run; [reflexivity | exact Hr | discriminate].
Qed.
