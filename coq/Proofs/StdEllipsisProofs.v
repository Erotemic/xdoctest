(* StdEllipsisProofs.v — for all texts, doctest._ellipsis_match(want, got) ==> checker._ellipsis_match(got, want). *)
From XD Require Import Model.StdDoctest Spec.EllipsisSpec Proofs.EllipsisProofs.
Open Scope N_scope.

(* the two splits cut at the same markers; xdoctest's pieces are the std pieces with the blanks around the marker shaved
   off: the first std piece is L ++ (first xd piece) ++ T, ..., the last L' ++ (last xd piece) *)
Inductive PRel : str -> list str -> list str -> Prop :=
| pr_last L xp : PRel L [L ++ xp] [xp]
| pr_cons L xp T L1 stds xds : PRel L1 stds xds -> PRel L ((L ++ xp ++ T) :: stds) (xp :: xds).

(* sp, the standard splitter's piece so far (reversed), is xdoctest's pending blanks q, its piece p, and lead, the blanks
   its separator swallowed at the front of this piece; while eating the blanks behind a marker (e) it has read none *)
Lemma splits_related : forall s sp p q k e lead,
  sp = q ++ p ++ lead -> (e = true -> p = [] /\ q = []) ->
  exists L, (e = false -> L = rev lead) /\ PRel L (std_go s sp k) (split_go s p q k e).
Proof.
  induction s as [|c s IH]; intros sp p q k e lead Hsp He.
  - cbn [std_go split_go]. exists (rev lead). split; [reflexivity|].
    subst sp. rewrite app_assoc, rev_app_distr. apply pr_last.
  - cbn [std_go split_go]. destruct k as [|k]; [|apply IH; assumption].
    destruct (starts_with marker (c :: s)) eqn:M.
    + (* a marker starts here: both emit a piece *)
      destruct (IH [] [] [] 2%nat true []) as (L1 & _ & R1); [reflexivity | auto |].
      exists (rev lead). split; [reflexivity|].
      subst sp. rewrite !rev_app_distr, <- app_assoc.
      eapply pr_cons. exact R1.
    + destruct (is_space c) eqn:SP; [destruct e|].
      * (* eaten by the separator *)
        destruct (He eq_refl) as [-> ->]. simpl in Hsp. subst sp.
        destruct (IH (c :: lead) [] [] 0%nat true (c :: lead)) as (L & _ & R); [reflexivity | auto |].
        exists L. split; [discriminate | exact R].
      * apply IH; [subst sp; reflexivity | discriminate].
      * destruct (IH (c :: sp) (c :: q ++ p) [] 0%nat false lead) as (L & HL & R);
          [subst sp; simpl; rewrite <- app_assoc; reflexivity | discriminate |].
        exists L. split; [intros _; exact (HL eq_refl) | exact R].
Qed.

Lemma split_std_ell_related s : PRel [] (split_std s) (split_ell s).
Proof.
  destruct (splits_related s [] [] [] 0%nat false []) as (L & HL & R); [reflexivity | discriminate |].
  rewrite (HL eq_refl) in R. exact R.
Qed.

(* PiecesMatch without the anchor at the front: carried from the std pieces to xdoctest's along PRel, the shaved-off
   text going into the gaps *)
Definition TailMatch (ps : list str) (g : str) : Prop :=
  exists mids wl rest, ps = mids ++ [wl] /\ g = rest ++ wl /\ InOrder mids rest.

Lemma PRel_nonempty L stds xds : PRel L stds xds -> stds <> [] /\ xds <> [].
Proof. intros H; inversion H; split; discriminate. Qed.

Lemma TailMatch_prepend ps x g : TailMatch ps g -> TailMatch ps (x ++ g).
Proof.
  intros (mids & wl & rest & -> & -> & H). exists mids, wl, (x ++ rest).
  split; [reflexivity|]. split; [rewrite app_assoc; reflexivity | apply InOrder_prepend; exact H].
Qed.

Lemma TailMatch_transfer L stds xds : PRel L stds xds -> forall g, TailMatch stds g -> TailMatch xds g.
Proof.
  induction 1 as [L xp | L xp T L1 stds xds R IH]; intros g (mids & wl & rest & E & Hg & Hio).
  - destruct mids as [|m mids].
    + simpl in E. inversion E; subst wl. exists [], xp, (rest ++ L).
      split; [reflexivity|]. split; [subst g; rewrite <- !app_assoc; reflexivity | constructor].
    + exfalso. inversion E as [[E1 E2]]. destruct mids; discriminate.
  - destruct mids as [|m mids].
    + exfalso. simpl in E. inversion E as [[E1 E2]]. apply (proj1 (PRel_nonempty _ _ _ R)). exact E2.
    + simpl in E. inversion E as [[E1 E2]]. subst m.
      inversion Hio as [|p0 ps0 g1 g2 Hio' Ep Eg]; subst.
      assert (TM : TailMatch (mids ++ [wl]) (g2 ++ wl)) by (exists mids, wl, g2; auto).
      apply IH in TM. destruct TM as (xm & xl & r2 & Ex & Eg2 & Hx).
      exists (xp :: xm), xl, ((g1 ++ L) ++ xp ++ (T ++ r2)).
      split; [rewrite Ex; reflexivity|]. split.
      * rewrite <- !app_assoc. rewrite <- Eg2. reflexivity.
      * constructor. apply InOrder_prepend. exact Hx.
Qed.

Lemma PRel_length L stds xds : PRel L stds xds -> length stds = length xds.
Proof. induction 1; simpl; congruence. Qed.

Theorem std_ellipsis_implies_xdoctest want got :
  std_ellipsis_match want got = true -> ellipsis_match got want = true.
Proof.
  rewrite ellipsis_match_pieces. unfold std_ellipsis_match.
  destruct (contains marker want) eqn:Hc; cbn [negb]; [|exact (fun H => H)].
  destruct (split_ell_shape want Hc) as (x0 & xmids & xl & Hx).
  pose proof (split_std_ell_related want) as R. rewrite Hx in R.
  inversion R as [|L xp T L1 stds xds R' EL Es Exd]; subst.
  - exfalso. destruct xmids; discriminate.
  - (* split_std want = (x0 ++ T) :: stds, PRel L1 stds (xmids ++ [xl]) *)
    rewrite Hx.
    assert (NE : stds <> []) by apply (proj1 (PRel_nonempty _ _ _ R')).
    destruct (@exists_last _ stds NE) as (smids & sl & ->).
    rewrite !match_pieces_iff. intros (rest & Hg & Hio).
    assert (TM : TailMatch (smids ++ [sl]) (rest ++ sl)) by (exists smids, sl, rest; auto).
    apply (TailMatch_transfer _ _ _ R') in TM. apply (TailMatch_prepend _ T) in TM.
    destruct TM as (xm' & xl' & r' & E & Eg & Hio').
    apply app_inj_tail in E as [-> ->].
    exists r'. split; [|exact Hio'].
    subst got. rewrite <- Eg, <- !app_assoc. reflexivity.
Qed.

(* the converse fails: xdoctest also swallows the blanks around the marker *)
Example xdoctest_accepts_more :
  ellipsis_match [97;120;98] [97;32;46;46;46;32;98] = true /\          (* got 'axb', want 'a ... b' *)
  std_ellipsis_match [97;32;46;46;46;32;98] [97;120;98] = false.
Proof. vm_compute. split; reflexivity. Qed.
