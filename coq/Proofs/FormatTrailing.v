(* FormatTrailing.v — what the display of a part holds when some of its lines are EMPTY (an empty continuation line inside a
   bracket, the bare '...' that closes a block in front of the output).  C18_format_part_plain asks for non-empty lines
   throughout; here the only thing asked of the lines is that they hold no line break, and the result says exactly which line
   the display loses: an empty LAST line of the text that is split, and nothing else.  With prompts the last source line is
   '...' or '>>>' (not empty), so the display with prompts loses nothing; without prompts the bare terminator is not shown. *)
From XD Require Import Model.Format Proofs.BaseFacts Proofs.FormatProofs.
Open Scope N_scope.

Fixpoint drop_last_empty (ls : list str) : list str :=
  match ls with
  | [] => []
  | l :: t => match t with
              | [] => match l with [] => [] | _ => [l] end
              | _ => l :: drop_last_empty t
              end
  end.

Lemma drop_last_empty_cons l m r : drop_last_empty (l :: m :: r) = l :: drop_last_empty (m :: r).
Proof. reflexivity. Qed.

Lemma drop_last_empty_cases ls : drop_last_empty ls = ls \/ ls = drop_last_empty ls ++ [[]].
Proof.
  induction ls as [|l|l m r IH] using list_ind_join; [left; reflexivity | destruct l; [right | left]; reflexivity |].
  rewrite drop_last_empty_cons. destruct IH as [-> | E]; [left; reflexivity | right; cbn [app]; rewrite <- E; reflexivity].
Qed.

Lemma drop_last_empty_nonempty ls : Forall (fun l : str => l <> []) ls -> drop_last_empty ls = ls.
Proof.
  intros H. destruct (drop_last_empty_cases ls) as [E|E]; [exact E|].
  rewrite E in H. apply Forall_app in H as [_ H]. inversion H. contradiction.
Qed.

Lemma drop_last_empty_incl ls (l : str) : In l (drop_last_empty ls) -> In l ls.
Proof.
  intros H. destruct (drop_last_empty_cases ls) as [E|E]; [rewrite <- E; exact H|].
  rewrite E. apply in_or_app. left. exact H.
Qed.

Lemma drop_last_empty_keeps ls (l : str) : In l ls -> l <> [] -> In l (drop_last_empty ls).
Proof.
  intros H Hne. destruct (drop_last_empty_cases ls) as [E|E]; [rewrite E; exact H|].
  rewrite E in H. apply in_app_or in H as [H|[H|[]]]; [exact H | congruence].
Qed.

Lemma drop_last_empty_snoc ls : ls <> [] -> drop_last_empty (ls ++ [[]]) = ls.
Proof.
  induction ls as [|l|l m r IH] using list_ind_join; intros H; [contradiction | reflexivity |].
  cbn [app]. rewrite drop_last_empty_cons. f_equal. apply IH. discriminate.
Qed.

Lemma lines_join_all {brk scan} (Sc : Scanner brk scan) ls :
  Forall (BreakFree brk) ls -> map (chomp_by brk) (scan (join_nl ls) []) = drop_last_empty ls.
Proof.
  induction ls as [|l|l m r IH] using list_ind_join; intros H; inversion H as [|? ? Hc Hr]; subst.
  - apply (lines_last Sc []). intros c [].
  - apply (lines_last Sc), Hc.
  - rewrite join_nl_cons, (lines_line Sc), IH by assumption. reflexivity.
Qed.

Theorem srclines_join_all ls : Forall Clean ls -> srclines (join_nl ls) = drop_last_empty ls.
Proof. intros H. apply (lines_join_all srclines_scanner). revert H. apply Forall_impl, Clean_srcbreak. Qed.

Theorem splitlines_join_all ls : Forall Clean ls -> splitlines (join_nl ls) = drop_last_empty ls.
Proof. exact (lines_join_all splitlines_scanner ls). Qed.

(* a part whose lines hold no line break (they may be empty) *)
Definition BreakFreePart (p : part) : Prop :=
  Forall Clean (orig_lines p) /\ Forall Clean (exec_lines p) /\ Forall Clean (want_lines p).

Theorem format_part_plain_all p want prefix startline nd : BreakFreePart p ->
  format_part_pieces p (mkFmt false want prefix None) startline nd =
  (drop_last_empty (if prefix then orig_lines p else exec_lines p), (if want then drop_last_empty (want_lines p) else [])).
Proof.
  intros (A & B & C). rewrite format_part_pieces_plain.
  destruct prefix, want; rewrite ?srclines_join_all by assumption; reflexivity.
Qed.

(* non-vacuity: the part of  '>>> if x:' / '...     y' / '...' / want 'z'  -- with prompts all three source lines are shown,
   without prompts the two lines of the statement *)
Definition demo_terminated_part : part :=
  mkPart [[105;102;32;120;58]; [32;32;32;32;121]; []] [[122]] 0
         [[62;62;62;32;105;102;32;120;58]; [46;46;46;32;32;32;32;32;121]; [46;46;46]] [] M_single false.

Example demo_terminated_display :
  BreakFreePart demo_terminated_part /\
  format_part_pieces demo_terminated_part (mkFmt false true true None) 1 None =
    (orig_lines demo_terminated_part, [[122]]) /\
  format_part_pieces demo_terminated_part (mkFmt false true false None) 1 None =
    ([[105;102;32;120;58]; [32;32;32;32;121]], [[122]]).
Proof.
  split; [|split; vm_compute; reflexivity].
  repeat split; repeat constructor; apply Clean_forallb; reflexivity.
Qed.
