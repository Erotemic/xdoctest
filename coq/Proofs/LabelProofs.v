(* LabelProofs.v — the labeller assigns the intended labels (Spec/Labels.v) to a well-formed docstring built from
   blocks; it is followed block by block through `Run` (Run_app). *)
From XD Require Import Model.Parser Spec.Labels.
Open Scope N_scope.

Lemma is_space_SP : is_space SP = true. Proof. reflexivity. Qed.
Lemma not_space_not_sp c : is_space c = false -> is_sp c = false.
Proof.
  unfold is_sp. destruct (N.eqb_spec c SP) as [->|]; [intros H; rewrite is_space_SP in H; discriminate | reflexivity].
Qed.

Lemma skipn_spaces n r : skipn n (spaces n ++ r) = r.
Proof. unfold spaces. induction n; simpl; [reflexivity | exact IHn]. Qed.

Lemma drop_sp_spaces n c r : is_sp c = false -> drop_while is_sp (spaces n ++ c :: r) = c :: r.
Proof. intros H. unfold spaces. induction n; simpl; [rewrite H; reflexivity | exact IHn]. Qed.
Lemma take_sp_spaces n c r : is_sp c = false -> take_while is_sp (spaces n ++ c :: r) = spaces n.
Proof. intros H. unfold spaces. induction n; simpl; [rewrite H; reflexivity | rewrite IHn; reflexivity]. Qed.
Lemma spaces_length n : length (spaces n) = n.
Proof. apply repeat_length. Qed.

Lemma line_indent_spaces n c r : is_space c = false -> line_indent (spaces n ++ c :: r) = n.
Proof.
  intros H. unfold line_indent, indent_match. rewrite drop_sp_spaces by (apply not_space_not_sp; exact H).
  rewrite H, take_sp_spaces by (apply not_space_not_sp; exact H). apply spaces_length.
Qed.

Lemma drop_while_app f (x y : str) :
  drop_while f (x ++ y) = match drop_while f x with [] => drop_while f y | d => d ++ y end.
Proof.
  induction x as [|c x IH]; simpl; [destruct (drop_while f y); reflexivity|].
  destruct (f c); [exact IH | reflexivity].
Qed.

Lemma rstrip_app a b : rstrip (a ++ b) = match rstrip b with [] => rstrip a | t => a ++ t end.
Proof.
  unfold rstrip. rewrite rev_app_distr, drop_while_app.
  destruct (drop_while is_space (rev b)) as [|d ds] eqn:E; simpl; [reflexivity|].
  rewrite rev_app_distr, rev_involutive.
  destruct (rev ds ++ [d]) eqn:E2; [destruct (rev ds); discriminate|]. rewrite <- E2, app_assoc. reflexivity.
Qed.

Lemma strip_spaces n r : strip (spaces n ++ r) = strip r.
Proof.
  induction n as [|n IH]; [reflexivity|]. rewrite <- IH. unfold strip.
  change (spaces (S n) ++ r) with ([SP] ++ spaces n ++ r). rewrite (rstrip_app [SP]). destruct (rstrip _); reflexivity.
Qed.

Lemma rstrip_cons c t : is_space c = false -> rstrip (c :: t) = c :: rstrip t.
Proof.
  intros H. change (c :: t) with ([c] ++ t). rewrite rstrip_app.
  destruct (rstrip t); [unfold rstrip; cbn [rev app drop_while]; rewrite H|]; reflexivity.
Qed.

Lemma strip_cons c t : is_space c = false -> strip (c :: t) = c :: rstrip t.
Proof. intros H. unfold strip, lstrip. rewrite (rstrip_cons c t H). cbn [drop_while]. rewrite H. reflexivity. Qed.

Lemma PS2_nonspace : forall c, In c PS2 -> is_space c = false.
Proof. intros c H. simpl in H. repeat (destruct H as [<-|H]; [reflexivity|]). contradiction. Qed.

(* a '>>> ' line, stripped, is '>>>' alone or '>>> ' and more *)
Lemma strip_ps1 code :
  hasprefix PS1 (strip (PS1sp ++ code)) = true /\ eqb_str (strip (PS1sp ++ code)) PS2 = false /\
  is_empty (strip (PS1sp ++ code)) = false.
Proof.
  change (PS1sp ++ code) with (62 :: 62 :: 62 :: [SP] ++ code). rewrite strip_cons, !rstrip_cons, rstrip_app by reflexivity.
  destruct (rstrip code); repeat split.
Qed.

Lemma hasprefix_ps1sp code : hasprefix PS1 (PS1sp ++ code) = true.   Proof. reflexivity. Qed.
Lemma hasprefix_ps2_ps1sp code : hasprefix PS2 (PS1sp ++ code) = false. Proof. reflexivity. Qed.
Lemma hasprefix_ps2sp code : hasprefix PS2 (PS2sp ++ code) = true.   Proof. reflexivity. Qed.
Lemma prefix_ok_prompt b code : prefix_ok (prompt b ++ code) = true.
Proof. destruct b; reflexivity. Qed.
Lemma prefix_ok_or_empty_prompt b code : prefix_ok_or_empty (prompt b ++ code) = true.
Proof. destruct b; reflexivity. Qed.
Lemma skipn4_prompt b code : skipn 4 (prompt b ++ code) = code.
Proof. destruct b; reflexivity. Qed.
Lemma hasprefix_ps2_prompt b code : hasprefix PS2 (prompt b ++ code) = b.
Proof. destruct b; reflexivity. Qed.

Fixpoint prepend (l : list (label * str)) (r : res (list (label * str))) : res (list (label * str)) :=
  match l with [] => r | x :: l' => cons_res x (prepend l' r) end.
Lemma prepend_ok l r : prepend l (Ok r) = Ok (l ++ r).
Proof. induction l as [|x l IH]; simpl; [reflexivity | rewrite IH; reflexivity]. Qed.
Lemma prepend_app a b r : prepend (a ++ b) r = prepend a (prepend b r).
Proof. induction a as [|x a IH]; simpl; [reflexivity | rewrite IH; reflexivity]. Qed.

Lemma combine_app {A B} (a1 a2 : list A) (b1 b2 : list B) : length a1 = length b1 ->
  combine (a1 ++ a2) (b1 ++ b2) = combine a1 b1 ++ combine a2 b2.
Proof.
  revert b1. induction a1 as [|x a1 IH]; intros [|y b1] H; simpl in *; try discriminate; [reflexivity|].
  rewrite IH by congruence. reflexivity.
Qed.

(* from st the labeller gives these lines the labels labs and is then in st', whatever follows *)
Definition Run bal (st : lstate) (lines : list str) (labs : list label) (st' : lstate) : Prop :=
  forall rest, label_go bal (lines ++ rest) st = prepend (combine labs lines) (label_go bal rest st').

Lemma Run_nil bal st : Run bal st [] [] st.
Proof. intros rest. reflexivity. Qed.

Lemma Run_app bal st l1 L1 st1 l2 L2 st2 : length L1 = length l1 ->
  Run bal st l1 L1 st1 -> Run bal st1 l2 L2 st2 -> Run bal st (l1 ++ l2) (L1 ++ L2) st2.
Proof.
  intros HL R1 R2 rest. rewrite <- app_assoc, (R1 (l2 ++ rest)), (R2 rest), combine_app, prepend_app by exact HL. reflexivity.
Qed.

(* one line that is not source, so that _complete_source is not entered *)
Lemma Run_plain bal prev ind line lab ind' : is_src lab = false -> transition prev ind line = lab ->
  (if label_eqb prev lab then ind else match lab with TEXT => O | _ => ind end) = ind' ->
  Run bal (mkL prev ind None) [line] [lab] (mkL lab ind' None).
Proof.
  intros HS HT HI rest. cbn [app label_go l_comp l_prev l_indent]. rewrite HT.
  destruct lab; try discriminate; cbn [is_src] in *; rewrite HI; reflexivity.
Qed.

Lemma last_cons_default {A} (x : A) l d1 d2 : last (x :: l) d1 = last (x :: l) d2.
Proof. revert x. induction l as [|y l IH]; intros x; [reflexivity|]. change (last (y :: l) d1 = last (y :: l) d2). apply IH. Qed.

Lemma last_label_cons cur c cs : last_label cur (c :: cs) = last_label (if cl_ps2 c then DCNT else cur) cs.
Proof.
  unfold last_label. destruct cs as [|c2 cs]; [reflexivity|]. cbn [more_labels].
  set (x := if cl_ps2 c2 then _ else _). exact (last_cons_default x _ cur _).
Qed.

Lemma run_more bal ind : forall cs parts cur,
  cs <> [] ->
  (forall k, (0 < k < length cs)%nat -> bal (parts ++ firstn k (map cl_code cs)) = Ok false) ->
  bal (parts ++ map cl_code cs) = Ok true ->
  Run bal (mkL cur ind (Some (parts, cur))) (map (cline_text ind) cs) (more_labels cur cs) (mkL (last_label cur cs) ind None).
Proof.
  induction cs as [|c cs IH]; intros parts cur NE Hf Ht rest; [contradiction NE; reflexivity|].
  rewrite last_label_cons. cbn [map app label_go l_comp l_indent more_labels combine prepend].
  unfold cline_text. rewrite !skipn_spaces, !prefix_ok_or_empty_prompt, !skipn4_prompt, !hasprefix_ps2_prompt.
  set (cur' := if cl_ps2 c then DCNT else cur).
  destruct cs as [|c2 cs'].
  - (* last line of the statement *)
    simpl in Ht. rewrite Ht. reflexivity.
  - assert (F : bal (parts ++ [cl_code c]) = Ok false) by (apply (Hf 1%nat); simpl; lia).
    rewrite F, (IH (parts ++ [cl_code c]) cur'); [reflexivity | discriminate | |].
    + intros k Hk. rewrite <- app_assoc. apply (Hf (S k)). simpl in *. lia.
    + rewrite <- app_assoc. exact Ht.
Qed.

(* directly after source lines a '>>> ' line is source only at their indentation (else text or want: F8a/F8b) *)
Lemma transition_ps1 prev pind ind code : (is_src prev = true -> ind = pind) ->
  transition prev pind (spaces ind ++ PS1sp ++ code) = DSRC.
Proof.
  intros HI. unfold transition. destruct (strip_ps1 code) as (A & B & C). rewrite strip_spaces, A, B, C.
  assert (LI : line_indent (spaces ind ++ PS1sp ++ code) = ind) by (apply line_indent_spaces; reflexivity).
  destruct prev; try reflexivity; rewrite <- (HI eq_refl), skipn_spaces, LI, Nat.ltb_irrefl; reflexivity.
Qed.

Lemma run_stmt bal ind s prev pind : (is_src prev = true -> ind = pind) -> BalOK bal s ->
  Run bal (mkL prev pind None) (stmt_lines ind s) (stmt_labels s) (mkL (last_label DSRC (sb_more s)) ind None).
Proof.
  intros HI [Hf Ht] rest. unfold stmt_lines, stmt_labels. cbn [app label_go combine prepend l_comp l_prev l_indent].
  rewrite (transition_ps1 prev pind ind _ HI).
  assert (IND : (if label_eqb prev DSRC then pind else line_indent (spaces ind ++ PS1sp ++ sb_code s)) = ind).
  { destruct prev; try (apply line_indent_spaces; reflexivity). symmetry. apply HI. reflexivity. }
  rewrite IND. cbn [is_src]. rewrite skipn_spaces.
  rewrite (prefix_ok_prompt false), hasprefix_ps2_ps1sp, (skipn4_prompt false). cbn [negb].
  unfold codes in Hf, Ht. destruct (sb_more s) as [|c cs].
  - simpl in Ht. unfold str in *. rewrite Ht. reflexivity.
  - assert (F : bal [sb_code s] = Ok false) by (apply (Hf 1%nat); simpl; lia).
    unfold str in *. rewrite F. f_equal. apply (run_more bal ind (c :: cs) [sb_code s] DSRC); [discriminate | | exact Ht].
    intros k Hk. apply (Hf (S k)). simpl in *. rewrite map_length. lia.
Qed.

Lemma more_labels_length cur cs : length (more_labels cur cs) = length cs.
Proof. revert cur. induction cs as [|c cs IH]; intros cur; simpl; [reflexivity | rewrite IH; reflexivity]. Qed.
Lemma stmt_labels_length ind s : length (stmt_labels s) = length (stmt_lines ind s).
Proof. unfold stmt_labels, stmt_lines. simpl. rewrite more_labels_length, map_length. reflexivity. Qed.
Lemma stmts_labels_length ind ss : length (concat (map stmt_labels ss)) = length (concat (map (stmt_lines ind) ss)).
Proof.
  induction ss as [|s ss IH]; [reflexivity|]. cbn [map concat]. rewrite !app_length, IH, (stmt_labels_length ind). reflexivity.
Qed.

Lemma last_label_src cur cs : is_src cur = true -> is_src (last_label cur cs) = true.
Proof.
  revert cur. induction cs as [|c cs IH]; intros cur H; [exact H|]. rewrite last_label_cons. apply IH.
  destruct (cl_ps2 c); [reflexivity | exact H].
Qed.

Definition last_of (stmts : list stmtb) (prev : label) : label :=
  match rev stmts with [] => prev | s :: _ => last_label DSRC (sb_more s) end.

Lemma last_of_cons s ss prev : last_of (s :: ss) prev = last_of ss (last_label DSRC (sb_more s)).
Proof.
  unfold last_of. simpl. destruct (rev ss) as [|x l] eqn:E; simpl; reflexivity.
Qed.
Lemma last_of_src ss prev : is_src prev = true -> is_src (last_of ss prev) = true.
Proof. intros H. unfold last_of. destruct (rev ss); [exact H | apply last_label_src; reflexivity]. Qed.

(* only the first statement needs the hypothesis on the indentation *)
Lemma run_stmts bal ind : forall ss s prev pind, (is_src prev = true -> ind = pind) -> Forall (BalOK bal) (s :: ss) ->
  Run bal (mkL prev pind None) (concat (map (stmt_lines ind) (s :: ss))) (concat (map stmt_labels (s :: ss)))
      (mkL (last_of ss (last_label DSRC (sb_more s))) ind None).
Proof.
  induction ss as [|s' ss IH]; intros s prev pind HI HF; inversion HF as [|? ? HB HF']; subst; cbn [map concat];
    (eapply Run_app; [apply stmt_labels_length | apply run_stmt; assumption |]).
  - apply Run_nil.
  - rewrite last_of_cons. apply IH; [intros _; reflexivity | exact HF'].
Qed.

Lemma transition_want prev ind w : prev <> TEXT -> WantLine w -> transition prev ind (spaces ind ++ w) = WANT.
Proof.
  intros Hp [(c & r & -> & Hc) (H1 & W1 & W2)]. unfold transition.
  rewrite strip_spaces, H1, strip_cons, line_indent_spaces, skipn_spaces, W1, W2, Nat.ltb_irrefl by exact Hc.
  destruct prev; try reflexivity. contradiction Hp. reflexivity.
Qed.

Lemma run_wants bal ind : forall ws prev, prev <> TEXT -> Forall WantLine ws ->
  Run bal (mkL prev ind None) (map (fun w => spaces ind ++ w) ws) (map (fun _ => WANT) ws)
      (mkL (match ws with [] => prev | _ => WANT end) ind None).
Proof.
  induction ws as [|w ws IH]; intros prev Hp HF; [apply Run_nil|]. inversion HF as [|? ? HW HF']; subst.
  apply (Run_app _ _ [_] [_] (mkL WANT ind None)); [reflexivity | |].
  - apply Run_plain; [reflexivity | apply transition_want; assumption | destruct prev; reflexivity].
  - specialize (IH WANT ltac:(discriminate) HF'). destruct ws; exact IH.
Qed.

Lemma run_prose_text bal : forall ls pind, Forall ProseLine ls ->
  Run bal (mkL TEXT pind None) ls (map (fun _ => TEXT) ls) (mkL TEXT pind None).
Proof.
  induction ls as [|l ls IH]; intros pind HF; [apply Run_nil|]. inversion HF as [|? ? HP HF']; subst.
  apply (Run_app _ _ [_] [_] (mkL TEXT pind None)); [reflexivity | | apply IH; exact HF'].
  apply Run_plain; [reflexivity | unfold transition; rewrite HP; reflexivity | reflexivity].
Qed.

Lemma run_prose bal prev pind l ls : prev <> TEXT -> strip l = [] -> Forall ProseLine ls ->
  Run bal (mkL prev pind None) (l :: ls) (map (fun _ => TEXT) (l :: ls)) (mkL TEXT O None).
Proof.
  intros Hp Hb HF. apply (Run_app _ _ [_] [_] (mkL TEXT O None)); [reflexivity | | apply run_prose_text; exact HF].
  apply Run_plain; [reflexivity | unfold transition; rewrite Hb; destruct prev; reflexivity|].
  destruct prev; try reflexivity. contradiction Hp. reflexivity.
Qed.

Lemma ex_labels_length e : length (ex_labels e) = length (ex_lines e).
Proof. unfold ex_labels, ex_lines. rewrite !app_length, !map_length, (stmts_labels_length (ex_ind e)). reflexivity. Qed.

Lemma run_example bal e prev pind :
  ex_stmts e <> [] -> Forall (BalOK bal) (ex_stmts e) -> Forall WantLine (ex_want e) ->
  (is_src prev = true -> ex_ind e = pind) ->
  Run bal (mkL prev pind None) (ex_lines e) (ex_labels e)
      (mkL (fst (after_block prev pind (BEx e))) (snd (after_block prev pind (BEx e))) None).
Proof.
  intros NE HB HW HI. unfold ex_lines, ex_labels, after_block, last_stmt_label.
  destruct (ex_stmts e) as [|s ss]; [contradiction NE; reflexivity|]. set (ind := ex_ind e) in *.
  fold (last_of (s :: ss) DSRC). rewrite last_of_cons. set (l := last_of ss _).
  assert (SRC : is_src l = true) by (apply last_of_src, last_label_src; reflexivity).
  apply (Run_app _ _ _ _ (mkL l ind None)); [apply stmts_labels_length | apply run_stmts; assumption |].
  pose proof (run_wants bal ind (ex_want e) l ltac:(intros E; rewrite E in SRC; discriminate) HW) as R.
  destruct (ex_want e); exact R.
Qed.

Lemma block_labels_length b : length (block_labels b) = length (block_lines b).
Proof. destruct b as [ls|e]; simpl; [apply map_length | apply ex_labels_length]. Qed.

Lemma run_block bal b prev pind : ok_after bal prev pind b ->
  Run bal (mkL prev pind None) (block_lines b) (block_labels b)
      (mkL (fst (after_block prev pind b)) (snd (after_block prev pind b)) None).
Proof.
  destruct b as [ls|e]; intros H.
  - destruct H as [HF HB]. destruct ls as [|l ls]; [apply Run_nil|]. inversion HF as [|? ? HP HF']; subst.
    cbn [block_lines block_labels after_block fst snd].
    destruct prev; [apply run_prose_text; exact HF | ..]; (apply run_prose; [discriminate | apply HB; discriminate | exact HF']).
  - destruct H as (NE & HB & HW & HI). apply run_example; assumption.
Qed.

Lemma run_chain bal : forall bs prev pind, Chain bal prev pind bs ->
  exists st, l_comp st = None /\
    Run bal (mkL prev pind None) (concat (map block_lines bs)) (concat (map block_labels bs)) st.
Proof.
  induction bs as [|b bs IH]; intros prev pind HC.
  - eexists. split; [|apply Run_nil]. reflexivity.
  - inversion HC as [|? ? ? ? Hok Hrest]; subst. destruct (IH _ _ Hrest) as (st & E & R). exists st. split; [exact E|].
    cbn [map concat]. eapply Run_app; [apply block_labels_length | apply run_block; exact Hok | exact R].
Qed.

Theorem labels_as_intended_from bal : forall bs prev pind, Chain bal prev pind bs ->
  label_go bal (concat (map block_lines bs)) (mkL prev pind None) = Ok (intended bs).
Proof.
  intros bs prev pind HC. destruct (run_chain bal bs prev pind HC) as (st & E & R).
  specialize (R []). rewrite app_nil_r in R. rewrite R. cbn [label_go]. rewrite E, prepend_ok, app_nil_r. reflexivity.
Qed.

Theorem labels_as_intended bal bs s :
  srclines s = concat (map block_lines bs) -> Chain bal TEXT O bs ->
  label_lines bal s = Ok (intended bs).
Proof. intros E HC. unfold label_lines. rewrite E. apply labels_as_intended_from. exact HC. Qed.

(* the hypotheses are satisfiable: prose, an example (one statement spanning two lines) with a want, prose *)

Definition count_char (c : char) (s : str) : nat := length (filter (N.eqb c) s).
(* like the tokenizer: complete when the brackets are closed *)
Definition demo_bal (parts : list str) : res bool :=
  Ok (Nat.eqb (count_char 40 (concat parts)) (count_char 41 (concat parts))).

Definition demo_blocks : list block :=
  [ BProse [[83;117;109;109;97;114;121;46]; []];                                   (* "Summary." "" *)
    BEx (mkEx 4 [ mkStmtB [120;32;61;32;40;49;44] [mkCL true [32;32;32;32;32;50;41]];   (* x = (1,  /  ...      2) *)
                  mkStmtB [120] [] ]                                                    (* x *)
                [[40;49;44;32;50;41]]);                                                 (* (1, 2) *)
    BProse [[]; [77;111;114;101;46]] ].                                            (* "" "More." *)

Example demo_chain : Chain demo_bal TEXT O demo_blocks.
Proof.
  unfold demo_blocks.
  apply Chain_cons.
  { split; [repeat constructor | intros H; contradiction H; reflexivity]. }
  apply Chain_cons.
  { split; [discriminate|]. split; [|split].
    - constructor; [|constructor; [|constructor]].
      + split; [intros k Hk; simpl in Hk; destruct k as [|[|k]]; [lia | reflexivity | lia] | reflexivity].
      + split; [intros k Hk; simpl in Hk; lia | reflexivity].
    - constructor; [|constructor]. split; [eexists; eexists; split; reflexivity | repeat split; reflexivity].
    - intros H; discriminate H. }
  apply Chain_cons.
  { split; [repeat constructor | intros _; reflexivity]. }
  apply Chain_nil.
Qed.

Example demo_labels :
  map fst (intended demo_blocks) = [TEXT; TEXT; DSRC; DCNT; DSRC; WANT; TEXT; TEXT] /\
  label_go demo_bal (concat (map block_lines demo_blocks)) (mkL TEXT O None) = Ok (intended demo_blocks).
Proof. split; [reflexivity | apply labels_as_intended_from; exact demo_chain]. Qed.
