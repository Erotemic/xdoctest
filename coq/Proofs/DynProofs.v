(* DynProofs.v — static and dynamic analysis find the same callables with the same docstrings on modules in which no
   class name is bound again (C16). *)
From XD Require Import Model.DynCollect Proofs.BaseFacts Proofs.StaticProofs.
Open Scope N_scope.

Definition NoDot (s : str) : Prop := forall c, In c s -> (c =? DOT) = false.

Lemma prefix_dot_eq a : forall b rest, NoDot a -> NoDot b ->
  starts_with (a ++ [DOT]) (b ++ [DOT] ++ rest) = true -> a = b.
Proof.
  induction a as [|x a IH]; intros [|y b] rest Ha Hb H; [reflexivity | | |]; cbn [starts_with app] in H;
    apply andb_true_iff in H as [H1 H2]; apply N.eqb_eq in H1; subst.
  - discriminate (Hb DOT (or_introl eq_refl)).
  - discriminate (Ha DOT (or_introl eq_refl)).
  - f_equal. apply (IH b rest); [intros c Hc; apply Ha | intros c Hc; apply Hb | exact H2]; right; exact Hc.
Qed.

Lemma not_member_of_plain nm name : NoDot name -> member_of nm name = false.
Proof.
  intros H. apply not_true_iff_false. intros E. apply starts_with_spec in E as [t ->].
  assert (X : In DOT ((nm ++ [DOT]) ++ t)) by (rewrite !in_app_iff; simpl; auto).
  discriminate (H DOT X).
Qed.

(* no key collected so far is a member key name.x, so binding name at module level drops nothing *)
Definition Clean (name : str) (acc : calldefs) : Prop := forall kv, In kv acc -> member_of name (fst kv) = false.

Lemma drop_clean name acc : Clean name acc -> drop_members name acc = acc.
Proof.
  unfold drop_members. induction acc as [|kv acc IH]; intros H; simpl; [reflexivity|].
  rewrite (H kv (or_introl eq_refl)). simpl. rewrite IH; [reflexivity | intros x Hx; apply H; right; exact Hx].
Qed.

Lemma dyn_unfold cls k name hidden doc children acc :
  dyn cls (SNode k name hidden doc children) acc =
  match k with
  | NK_Func => if hidden then acc
               else match cls with
                    | None => dyn_bind name doc acc
                    | Some _ => od_set (callname_of cls name) doc acc
                    end
  | NK_Class => match cls with
                | None => dyn_list (Some name) children (dyn_bind name doc acc)
                | Some _ => acc
                end
  | NK_IfMain | NK_Other => dyn_list cls children acc
  end.
Proof. destruct k, cls; try reflexivity; apply (go_list (dyn _) (dyn_list _)); reflexivity. Qed.

(* the inner `fix go` of binds (tbinds, BoundNoDot) is convertible with binds_list (tbinds_list, BoundNoDotList): a fact
   about the list of children applies to an NK_Other / NK_IfMain node as it stands *)
Definition go_binds := fix go (l : list snode) : list str := match l with [] => [] | x :: r => binds x ++ go r end.
Lemma go_binds_eq l : go_binds l = binds_list l.
Proof. reflexivity. Qed.

(* module-level definition names are dot-free, as identifiers are *)
Fixpoint BoundNoDot (n : snode) : Prop :=
  match n with
  | SNode k name hidden doc children =>
      match k with
      | NK_Func | NK_Class => NoDot name
      | _ => (fix go (l : list snode) : Prop := match l with [] => True | x :: r => BoundNoDot x /\ go r end) children
      end
  end.
Fixpoint BoundNoDotList (l : list snode) : Prop := match l with [] => True | x :: r => BoundNoDot x /\ BoundNoDotList r end.

(* binds, each name with whether it is bound to a class *)
Fixpoint tbinds (n : snode) : list (bool * str) :=
  match n with
  | SNode k name hidden doc children =>
      let tb_all := (fix go (l : list snode) : list (bool * str) :=
                       match l with [] => [] | x :: r => tbinds x ++ go r end) children in
      match k with
      | NK_Func => if hidden then [] else [(false, name)]
      | NK_Class => [(true, name)]
      | NK_IfMain | NK_Other => tb_all
      end
  end.
Definition go_tbinds := fix go (l : list snode) : list (bool * str) := match l with [] => [] | x :: r => tbinds x ++ go r end.
Definition tbinds_list (body : list snode) : list (bool * str) := go_tbinds body.

Lemma binds_tbinds_both : (forall n, binds n = map snd (tbinds n)) /\ (forall l, binds_list l = map snd (tbinds_list l)).
Proof.
  apply snode_both.
  - intros k name hidden doc ch IH. destruct k; [destruct hidden; reflexivity | reflexivity | exact IH | exact IH].
  - reflexivity.
  - intros x r IHx IHr. cbn [binds_list]. rewrite IHx, IHr, <- map_app. reflexivity.
Qed.

Lemma binds_NoDot_both :
  (forall n, BoundNoDot n -> forall nm, In nm (binds n) -> NoDot nm) /\
  (forall l, BoundNoDotList l -> forall nm, In nm (binds_list l) -> NoDot nm).
Proof.
  apply snode_both.
  - intros k name hidden doc ch IH HB nm H. destruct k.
    + destruct hidden; [destruct H|]. destruct H as [<-|[]]. exact HB.
    + destruct H as [<-|[]]. exact HB.
    + exact (IH HB nm H).
    + exact (IH HB nm H).
  - intros _ nm [].
  - intros x r IHx IHr [HBx HBr] nm H. apply in_app_or in H. destruct H as [H|H]; [exact (IHx HBx nm H) | exact (IHr HBr nm H)].
Qed.

Lemma dyn_in_class_both :
  (forall n c acc, dyn (Some c) n acc = visit (Some c) n acc) /\
  (forall l c acc, dyn_list (Some c) l acc = visit_list (Some c) l acc).
Proof.
  apply snode_both.
  - intros k name hidden doc ch IH c acc. rewrite dyn_unfold, visit_unfold. destruct k; try reflexivity; apply IH.
  - reflexivity.
  - intros x r IHx IHr c acc. simpl. rewrite IHx. apply IHr.
Qed.

(* the shape of a key visible at module level (visible_key) *)
Definition bound_key (bs : list str) (tbs : list (bool * str)) (nm : str) : Prop :=
  In nm bs \/ exists c m, In (true, c) tbs /\ nm = c ++ [DOT] ++ m.

Lemma bound_key_child c ch nm : In c ch ->
  bound_key (binds c) (tbinds c) nm -> bound_key (binds_list ch) (tbinds_list ch) nm.
Proof.
  intros Hc [X|(c' & m & X & E)]; [left | right; exists c', m; split; [|exact E]];
    apply in_flat_map; exists c; split; assumption.
Qed.

Lemma visible_key cls n nm d : Visible cls n nm d ->
  match cls with
  | Some c => exists m, nm = c ++ [DOT] ++ m
  | None => bound_key (binds n) (tbinds n) nm
  end.
Proof.
  induction 1 as [cls name doc ch | name hidden doc ch | name hidden doc ch c nm d Hc _ IH
                 | cls name hidden doc ch c nm d Hc _ IH | cls name hidden doc ch c nm d Hc _ IH].
  - destruct cls; [eexists; reflexivity | left; left; reflexivity].
  - left. left. reflexivity.
  - destruct IH as [m ->]. right. exists name, m. split; [left|]; reflexivity.
  - destruct cls; [exact IH | exact (bound_key_child c ch nm Hc IH)].
  - destruct cls; [exact IH | exact (bound_key_child c ch nm Hc IH)].
Qed.

(* only a CLASS name must not be bound again: a redefined function, or a function later replaced by a class, is fine
   (both analyses report the last definition under the key's first position) *)
Fixpoint NoClassRebind (l : list (bool * str)) : Prop :=
  match l with
  | [] => True
  | (c, nm) :: r => (c = true -> ~ In nm (map snd r)) /\ NoClassRebind r
  end.

Lemma NoClassRebind_app a b : NoClassRebind (a ++ b) ->
  NoClassRebind a /\ NoClassRebind b /\ (forall nm, In (true, nm) a -> ~ In nm (map snd b)).
Proof.
  induction a as [|[c nm] a IH]; simpl; intros H.
  - split; [exact I|]. split; [exact H | intros nm []].
  - destruct H as [H1 H2]. destruct (IH H2) as (A & B & C). split.
    + split; [|exact A]. intros Hc X. apply (H1 Hc). rewrite map_app. apply in_or_app. left. exact X.
    + split; [exact B|]. intros nm' [E|Hin].
      * inversion E; subst. intros X. apply (H1 eq_refl). rewrite map_app. apply in_or_app. right. exact X.
      * apply C. exact Hin.
Qed.

Lemma NoDup_NoClassRebind l : NoDup (map snd l) -> NoClassRebind l.
Proof.
  induction l as [|[c nm] l IH]; simpl; intros H; [exact I|]. inversion H; subst.
  split; [intros _; assumption | apply IH; assumption].
Qed.

(* of the static visitor alone: a key added at module level is a bound name or c.m for a class c bound in n
   (visible_key), and nm' with a dot is a prefix of c.m only if nm' = c (prefix_dot_eq) *)
Lemma visit_keeps_clean n acc nm' :
  BoundNoDot n -> NoDot nm' -> ~ In (true, nm') (tbinds n) -> Clean nm' acc -> Clean nm' (visit None n acc).
Proof.
  intros HB Hd Hn Hc [k v] Hkv. destruct (visit_entries _ _ _ _ _ Hkv) as [X|X]; [exact (Hc _ X)|].
  apply visible_key in X. destruct X as [X|(c & m & X & ->)]; cbn [fst].
  - apply not_member_of_plain. exact (proj1 binds_NoDot_both n HB k X).
  - unfold member_of. destruct (starts_with (nm' ++ [DOT]) (c ++ [DOT] ++ m)) eqn:E; [|reflexivity].
    assert (Hc' : NoDot c)
      by (apply (proj1 binds_NoDot_both n HB); rewrite (proj1 binds_tbinds_both); exact (in_map snd _ _ X)).
    exfalso. apply Hn. rewrite (prefix_dot_eq nm' c m Hd Hc' E). exact X.
Qed.

(* while the names about to be bound have no collected members, binding them drops nothing *)
Lemma dyn_eq_visit_both :
  (forall n acc, BoundNoDot n -> NoClassRebind (tbinds n) -> (forall nm, In nm (binds n) -> Clean nm acc) ->
     dyn None n acc = visit None n acc) /\
  (forall l acc, BoundNoDotList l -> NoClassRebind (tbinds_list l) -> (forall nm, In nm (binds_list l) -> Clean nm acc) ->
     dyn_list None l acc = visit_list None l acc).
Proof.
  apply snode_both.
  - intros k name hidden doc ch IH acc HB ND HC. rewrite dyn_unfold, visit_unfold. unfold dyn_bind. destruct k.
    + destruct hidden; [reflexivity|]. rewrite drop_clean by (apply HC; left; reflexivity). reflexivity.
    + rewrite drop_clean by (apply HC; left; reflexivity). apply dyn_in_class_both.
    + exact (IH acc HB ND HC).
    + exact (IH acc HB ND HC).
  - reflexivity.
  - intros x r IHx IHr acc [HBx HBr] ND HC. destruct (NoClassRebind_app _ _ ND) as (NDx & NDr & Dis).
    simpl. rewrite IHx by (try assumption; intros nm H; apply HC, in_or_app; left; exact H).
    apply IHr; try assumption. intros nm H. apply visit_keeps_clean.
    + exact HBx.
    + exact (proj2 binds_NoDot_both r HBr nm H).
    + intros X. apply (Dis nm X). rewrite <- (proj2 binds_tbinds_both). exact H.
    + apply HC, in_or_app. right. exact H.
Qed.

Theorem static_dynamic_agree_rebind moddoc body :
  BoundNoDotList body -> NoClassRebind (tbinds_list body) ->
  dyn_module moddoc body = visit_module moddoc body.
Proof.
  intros HB ND. apply dyn_eq_visit_both; try assumption.
  intros nm _ kv Hkv. destruct moddoc; [|contradiction].
  destruct Hkv as [<-|[]]. apply not_member_of_plain. exact (forallb_negb (fun c => c =? DOT) DOC_KEY eq_refl).
Qed.

(* a function defined twice, and one later replaced by a class, satisfy the hypothesis *)
Example redefinition_allowed :
  let F := [102%N] in let G := [103%N] in
  let body := [SNode NK_Func F false (Some 1%nat) []; SNode NK_Func G false None [];
               SNode NK_Other [] false None [SNode NK_Func F false (Some 2%nat) []];
               SNode NK_Class G false (Some 3%nat) [SNode NK_Func F false (Some 4%nat) []]] in
  NoClassRebind (tbinds_list body) /\ ~ NoDup (binds_list body) /\
  visit_module None body = [(F, Some 2%nat); (G, Some 3%nat); (G ++ [DOT] ++ F, Some 4%nat)].
Proof.
  cbv zeta. split; [|split].
  - vm_compute. repeat split; try (intros Hc; discriminate Hc). intros _ [].
  - vm_compute. intros H. inversion H as [|? ? Hn _]; subst. apply Hn. right. left. reflexivity.
  - vm_compute. reflexivity.
Qed.

(* without it the two differ: a class bound twice keeps the first definition's members in the static collection only *)
Example rebinding_differs :
  let A := [65%N] in let M := [109%N] in let N' := [110%N] in
  let body := [SNode NK_Class A false None [SNode NK_Func M false (Some 1%nat) []];
               SNode NK_Class A false None [SNode NK_Func N' false (Some 2%nat) []]] in
  map fst (visit_module None body) = [A; A ++ [DOT] ++ M; A ++ [DOT] ++ N'] /\
  map fst (dyn_module None body) = [A; A ++ [DOT] ++ N'].
Proof. vm_compute. split; reflexivity. Qed.
