(* MonotoneNW.v — switching a leniency on never turns a match into a mismatch, under Spec.MatchRel.MonoGuard (F7 outside
   it; the witnesses are in Props/C05.v).  For NORMALIZE_WHITESPACE only NORMALIZE_REPR has to be off (F7c); ELLIPSIS may
   be on, by EllCollapse.ellmatch_collapse. *)
From XD Require Import Model.Checker Spec.MatchRel Proofs.CheckerProofs Proofs.EllCollapse.
Open Scope N_scope.

Lemma set_len_base_want f fl w : base_want (set_len f fl) w = base_want fl w.
Proof. destruct f; reflexivity. Qed.

Lemma collapse_delete s : delete_ws (collapse_ws s) = delete_ws s.
Proof. rewrite cgo_collapse. apply cgo_delete. Qed.

Lemma ws_norm_nw fl s :
  ws_norm (set_len L_NORMALIZE_WHITESPACE fl) s =
  if NORMALIZE_WHITESPACE fl || IGNORE_WHITESPACE fl then ws_norm fl s else collapse_ws (ws_norm fl s).
Proof.
  unfold ws_norm. cbn [set_len NORMALIZE_WHITESPACE IGNORE_WHITESPACE orb].
  destruct (NORMALIZE_WHITESPACE fl), (IGNORE_WHITESPACE fl); reflexivity.
Qed.

Lemma ws_norm_iw fl s :
  ws_norm (set_len L_IGNORE_WHITESPACE fl) s =
  if IGNORE_WHITESPACE fl then ws_norm fl s else delete_ws (ws_norm fl s).
Proof.
  unfold ws_norm. cbn [set_len NORMALIZE_WHITESPACE IGNORE_WHITESPACE]. rewrite orb_true_r.
  destruct (NORMALIZE_WHITESPACE fl), (IGNORE_WHITESPACE fl); cbn [orb]; try reflexivity.
  apply collapse_delete.
Qed.

Theorem check_output_monotone_nw fl got want :
  NORMALIZE_REPR fl = false ->
  check_output fl got want = true -> check_output (set_len L_NORMALIZE_WHITESPACE fl) got want = true.
Proof.
  intros NR. rewrite !check_output_no_repr by exact NR.
  intros [H|[H|H]]; [tauto | tauto | right; right].
  unfold NGot, NWant in *. rewrite set_len_base_want, !ws_norm_nw.
  destruct (NORMALIZE_WHITESPACE fl || IGNORE_WHITESPACE fl); [exact H|].
  destruct H as [H|[E H]]; [left; rewrite H; reflexivity | right; split; [exact E|]].
  apply ellmatch_collapse, H.
Qed.

Lemma set_repr_on fl : NORMALIZE_REPR fl = true -> set_len L_NORMALIZE_REPR fl = fl.
Proof. destruct fl. cbn. intros ->. reflexivity. Qed.

Theorem check_output_monotone fl f got want :
  MonoGuard fl f ->
  check_output fl got want = true -> check_output (set_len f fl) got want = true.
Proof.
  destruct f; cbn [MonoGuard].
  - (* ELLIPSIS: same normal forms, weaker core comparison *)
    intros NR. rewrite !check_output_no_repr by exact NR.
    intros [H|[H|H]]; [tauto | tauto | right; right].
    destruct H as [H|[_ H]]; [left; exact H | right; split; [reflexivity | exact H]].
  - (* NORMALIZE_WHITESPACE: the ELLIPSIS half of the guard is not needed *)
    intros [_ NR]. apply check_output_monotone_nw, NR.
  - (* IGNORE_WHITESPACE: equal normal forms stay equal *)
    intros [E NR]. rewrite !check_output_no_repr by exact NR.
    intros [H|[H|H]]; [tauto | tauto | right; right; left].
    apply (Core_no_ellipsis _ _ _ E) in H. unfold NGot, NWant in *.
    rewrite set_len_base_want, !ws_norm_iw, H. reflexivity.
  - (* NORMALIZE_REPR: equal normal forms need no unquoting *)
    intros E. destruct (NORMALIZE_REPR fl) eqn:NR; [rewrite set_repr_on by exact NR; trivial|].
    rewrite check_output_no_repr by exact NR. intros [H|[H|H]]; subst.
    + reflexivity.
    + apply check_output_identical.
    + apply check_output_norm_eq. exact (Core_no_ellipsis _ _ _ E H).
Qed.

(* a match only through the wildcard, with blanks that the collapsing changes on both sides *)
Example monotone_nw_example :
  let fl := mkFlags true false false false false false false in
  let got := [97;32;32;98;32;120;10;99]%N in          (* "a  b x\nc" *)
  let want := [97;32;32;98;32;46;46;46;10;99]%N in    (* "a  b ...\nc" *)
  check_output fl got want = true /\ eqb_str got want = false /\
  check_output (set_len L_NORMALIZE_WHITESPACE fl) got want = true.
Proof. vm_compute. repeat split; reflexivity. Qed.
