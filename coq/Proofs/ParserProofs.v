(* ParserProofs.v — facts about single functions of Model/Parser.v that several files use. *)
From XD Require Import Model.Parser Spec.Partition Proofs.BaseFacts.
Open Scope N_scope.

Lemma cons_res_ok {A} (x : A) r l : cons_res x r = Ok l -> exists l', r = Ok l' /\ l = x :: l'.
Proof. destruct r; simpl; intros H; inversion H; eauto. Qed.

Lemma label_go_same bal lines : forall st ll,
  label_go bal lines st = Ok ll -> Forall2 SameLineUpToHack ll lines.
Proof.
  induction lines as [|line rest IH]; intros st ll H.
  - simpl in H. destruct (l_comp st); [discriminate|]. injection H as <-. constructor.
  - (* however the line is taken, it goes out by cons_res *)
    assert (K : forall lab line' st', cons_res (lab, line') (label_go bal rest st') = Ok ll ->
                SameLineUpToHack (lab, line') line -> Forall2 SameLineUpToHack ll (line :: rest)).
    { intros lab line' st' C S. apply cons_res_ok in C as (l' & C & ->). constructor; [exact S | exact (IH _ _ C)]. }
    cbn [label_go] in H. destruct (l_comp st) as [[parts cur]|].
    + (* inside _complete_source *)
      destruct (prefix_ok_or_empty (skipn (l_indent st) line)).
      * destruct (bal _) as [[|]|e]; try discriminate; apply (K _ _ _ H); left; reflexivity.
      * destruct (has_triple_quote parts); [|discriminate].
        destruct (bal _) as [[|]|e]; try discriminate; apply (K _ _ _ H); right; exists (l_indent st); reflexivity.
    + destruct (is_src _).
      * destruct (negb (prefix_ok _)); [discriminate|].
        destruct (bal _) as [[|]|e]; try discriminate; apply (K _ _ _ H); left; reflexivity.
      * apply (K _ _ _ H). left. reflexivity.
Qed.

Lemma label_go_partition bal lines st ll :
  label_go bal lines st = Ok ll ->
  length ll = length lines /\ Forall2 SameLineUpToHack ll lines.
Proof. intros H. apply label_go_same in H. split; [exact (Forall2_length _ _ _ H) | exact H]. Qed.

Theorem label_lines_partition bal s ll :
  label_lines bal s = Ok ll ->
  length ll = length (srclines s) /\ Forall2 SameLineUpToHack ll (srclines s).
Proof. apply label_go_partition. Qed.

Lemma expandtabs_go_id s : BreakFree (fun c => c =? TAB) s -> forall col, expandtabs_go s col = s.
Proof.
  induction s as [|c s IH]; intros H col; simpl; [reflexivity|].
  rewrite (H c (or_introl eq_refl)).
  assert (Hs : BreakFree (fun c => c =? TAB) s) by (intros x Hx; apply H; right; exact Hx).
  destruct ((c =? NL) || (c =? CR)); rewrite IH by exact Hs; reflexivity.
Qed.

Local Open Scope nat_scope.

Lemma insert_sorted_in x l y : In y (insert_sorted x l) <-> In y (x :: l).
Proof.
  induction l as [|z l IH]; simpl; [reflexivity|].
  destruct (Nat.ltb x z); [reflexivity|].
  destruct (Nat.eqb x z) eqn:E; simpl.
  - apply Nat.eqb_eq in E. subst z. tauto.
  - rewrite IH. simpl. tauto.
Qed.

Lemma sort_uniq_in l y : In y (sort_uniq l) <-> In y l.
Proof. induction l as [|x l IH]; simpl; [reflexivity|]. rewrite insert_sorted_in. simpl. tauto. Qed.

(* the same in all three ways _locate_ps1_linenos settles the compile mode *)
Lemma locate_ps1_starts o src ps1 mode : locate_ps1 o src = Ok (ps1, mode) ->
  exists ivs stmts, balanced_intervals (o_bal o) (map (skipn 4) src) = Ok ivs /\
    o_ast o (hack_comments (map (skipn 4) src) (map fst ivs) 0) = Ok stmts /\
    ps1 = filter (fun x => negb (mem_nat x (index_filter (fun p => negb (eqb_str (firstn 4 p) PS1sp)) src 0)))
                 (sort_uniq (map st_line stmts)).
Proof.
  unfold locate_ps1. intros H.
  destruct (balanced_intervals (o_bal o) (map (skipn 4) src)) as [ivs|e]; [|discriminate]. cbn [bind] in H.
  destruct (o_ast o _) as [stmts|e] eqn:A; [|discriminate]. cbn [bind] in H.
  exists ivs, stmts. split; [reflexivity|]. split; [exact A|].
  match type of H with (match ?m with _ => _ end) = _ => destruct m end.
  - injection H as <- _. reflexivity.
  - destruct (o_semi o _) as [semi|e]; [|discriminate]. cbn [bind] in H. injection H as <- _. reflexivity.
  - injection H as <- _. reflexivity.
Qed.
