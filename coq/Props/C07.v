(* C07 — Collection is exact: every documented callable yields its doctests once.
   Model: Model/StaticCollect.v (TopLevelVisitor over the module's syntax tree; package_modpaths over a directory
   tree) and Model/Collect.v (which examples a docstring yields under each style). *)
From XD Require Import Model.StaticCollect Model.Collect Proofs.StaticProofs Proofs.CollectProofs.

(* a name is collected iff it is the module docstring or a visible definition: a function / async function /
   class among the module's statements (through any chain of non-definition nodes; of a main guard the else branch), or
   a function among the statements of such a class - named `func`, `Class`, `Class.method` *)
Theorem C07_collect_sound_complete : forall moddoc body nm,
  In nm (map fst (visit_module moddoc body)) <->
  (nm = DOC_KEY /\ moddoc <> None) \/ exists d, ModVisible body nm d.
Proof.
  intros moddoc body nm. unfold visit_module. rewrite (proj2 visit_keys_both).
  assert (M : forall d, ModVisible body nm d <-> exists x, In x body /\ Visible None x nm d)
    by (split; [inversion 1 | intros (x & ? & ?); econstructor]; eauto).
  setoid_rewrite M. destruct moddoc; simpl; split.
  - intros [[<-|[]]|X]; [left; split; [reflexivity | discriminate] | auto].
  - intros [[-> _]|X]; auto.
  - intros [[]|X]; auto.
  - intros [[_ X]|X]; [contradiction | auto].
Qed.
Print Assumptions C07_collect_sound_complete.

(* each collected callable appears under exactly one key *)
Theorem C07_keys_unique : forall moddoc body, NoDup (map fst (visit_module moddoc body)).
Proof.
  intros moddoc body. unfold visit_module. apply visit_nodup_both.
  destruct moddoc; simpl; [constructor; [tauto | constructor] | constructor].
Qed.
Print Assumptions C07_keys_unique.

(* the docstring stored under a key is that of a visible definition with that name *)
Theorem C07_docstring_of_visible : forall n cls acc nm d,
  In (nm, d) (visit cls n acc) -> In (nm, d) acc \/ Visible cls n nm d.
Proof. exact visit_entries. Qed.
Print Assumptions C07_docstring_of_visible.

(* nothing else: property setters/deleters, classes nested in a class (the block guarded by the main guard is
   not part of the tree at all: the node holds its else branch only) ... *)
Theorem C07_not_collected : forall cls n nm d, Visible cls n nm d ->
  match n with
  | SNode NK_Func _ hidden _ _ => hidden = false
  | SNode NK_Class _ _ _ _ => cls = None
  | _ => True
  end.
Proof. intros cls n nm d H. inversion H; subst; auto. Qed.
Print Assumptions C07_not_collected.

(* ... and nothing nested inside a function *)
Theorem C07_nested_in_function_invisible : forall cls name hidden doc ch nm' d',
  Visible cls (SNode NK_Func name hidden doc ch) nm' d' -> nm' = callname_of cls name /\ d' = doc /\ hidden = false.
Proof. intros cls name hidden doc ch nm' d' H. inversion H; subst. auto. Qed.
Print Assumptions C07_nested_in_function_invisible.

(* styles: google = one doctest per Example/Doctest block in order, indexed 0,1,..; freeform at most one per
   docstring; auto = google blocks when present, freeform otherwise *)
Theorem C07_google_blocks : forall bs,
  let ex := filter gb_is_example bs in
  g_items (google_examples (Some bs)) = number_from 0 (good_prefix ex) /\
  map e_num (g_items (google_examples (Some bs))) = seq 0 (length (good_prefix ex)) /\
  (forall b, In b (good_prefix ex) -> gb_parse b = None /\ gb_is_example b = true /\ In b bs) /\
  (g_raise (google_examples (Some bs)) = None <-> good_prefix ex = ex).
Proof. exact google_examples_spec. Qed.
Print Assumptions C07_google_blocks.

Theorem C07_freeform_one : forall parsed, (length (g_items (freeform_examples parsed)) <= 1)%nat.
Proof.
  intros parsed. unfold freeform_examples. destruct parsed as [e|items]; simpl; [lia|].
  destruct (freeform_go items false false 0 0) as [off kept]. destruct (Nat.eqb kept 0); simpl; lia.
Qed.
Print Assumptions C07_freeform_one.

Theorem C07_auto : forall g f, auto_examples g f = if is_empty (g_items g) then f else g.
Proof. intros g f. unfold auto_examples. destruct (g_items g); reflexivity. Qed.
Print Assumptions C07_auto.

(* the package walk: exactly the module files of every directory all of whose ancestors down from the package
   directory hold an __init__.py, plus the __init__.py of each such sub-package; nothing outside the package *)
Theorem C07_package_walk : forall t d p, In p (walk d t) <-> InPkg d t p.
Proof. exact walk_spec. Qed.
Print Assumptions C07_package_walk.

Theorem C07_walk_inside : forall t d p, InPkg d t p -> exists rest, p = d ++ rest /\ rest <> [].
Proof.
  intros t d p H. induction H.
  - exists [n]. split; [reflexivity | discriminate].
  - exists [n; INIT_PY]. split; [reflexivity | discriminate].
  - destruct IHInPkg as (rest & -> & _). exists (dname x :: rest). split; [rewrite <- app_assoc; reflexivity | discriminate].
Qed.
Print Assumptions C07_walk_inside.
