(* C10 — Native runner tallies and exit status agree with the per-doctest outcomes.
   Model: Model/Runner.v (gathering, _run_examples, __main__.main). *)
From XD Require Import Model.Runner Proofs.BaseFacts Proofs.RunProofs Proofs.RunnerProofs.

(* passed + failed + skipped = the number of doctests run *)
Theorem C10_tallies_add_up : forall outs rs, run_examples outs = Some rs -> AllReturn outs ->
  Forall ExactlyOne (summaries_of outs) ->
  (n_passed rs + n_failed rs + n_skipped rs = n_total rs)%nat /\ n_total rs = length outs.
Proof.
  intros outs rs H AR EO. destruct (AllReturn_map outs AR) as [l ->]. rewrite summaries_of_map in EO.
  rewrite run_examples_map in H. injection H as <-. simpl.
  rewrite counts_partition by exact EO. rewrite map_length. split; reflexivity.
Qed.
Print Assumptions C10_tallies_add_up.

(* ... every summary being exactly one of the three (C02, for every run) *)
Theorem C10_summaries_exactly_one : forall requires_met cfg oc ps sm st,
  run requires_met cfg oc ps = R_summary sm st -> ExactlyOne sm.
Proof. exact summary_exactly_one. Qed.
Print Assumptions C10_summaries_exactly_one.

(* the failed list: the positions of the doctests that failed, in order *)
Theorem C10_failed_list_exact : forall outs rs, run_examples outs = Some rs -> AllReturn outs ->
  Forall ExactlyOne (summaries_of outs) ->
  failed_idx rs = positions s_failed (summaries_of outs) 0 /\ length (failed_idx rs) = n_failed rs.
Proof.
  intros outs rs H AR EO. destruct (AllReturn_map outs AR) as [l ->]. rewrite summaries_of_map in *.
  rewrite run_examples_map in H. injection H as <-. simpl.
  rewrite failed_positions_spec by exact EO. split; [reflexivity | apply positions_length].
Qed.
Print Assumptions C10_failed_list_exact.

(* what `positions` lists *)
Theorem C10_positions_spec : forall f l i j, In j (positions f l i) <->
  exists sm, nth_error l (j - i) = Some sm /\ f sm = true /\ (i <= j)%nat.
Proof.
  intros f l i j. rewrite positions_in_from. split.
  - intros (k & sm & A & B & ->). exists sm. rewrite Nat.add_comm, Nat.add_sub. auto using Nat.le_add_l.
  - intros (sm & A & B & C). exists (j - i)%nat, sm. split; [exact A|]. split; [exact B | lia].
Qed.
Print Assumptions C10_positions_spec.

(* the command exits 1 iff at least one doctest failed, else 0 *)
Theorem C10_exit_status : forall outs rs, run_examples outs = Some rs -> AllReturn outs ->
  (exit_status rs = 1%nat <-> exists sm, In sm (summaries_of outs) /\ s_failed sm = true) /\
  (exit_status rs = 0%nat \/ exit_status rs = 1%nat).
Proof. exact exit_status_iff. Qed.
Print Assumptions C10_exit_status.

(* `all` runs every collected doctest that is not force-disabled, once, in order *)
Theorem C10_gather_all : forall examples e,
  In e (gather C_all examples) <-> In e examples /\ ex_disabled e = false.
Proof.
  intros examples e. unfold gather. rewrite filter_In. destruct (ex_disabled e); simpl; intuition congruence.
Qed.
Print Assumptions C10_gather_all.

Theorem C10_gather_all_once : forall examples, NoDup (map ex_unique examples) ->
  NoDup (map ex_unique (gather C_all examples)) /\
  gather C_all examples = filter (fun e => negb (ex_disabled e)) examples.
Proof. intros examples H. split; [apply filter_NoDup_map; exact H | reflexivity]. Qed.
Print Assumptions C10_gather_all_once.

(* naming a single doctest runs exactly that one even if force-disabled (third hypothesis: a callname holds no ':', so it
   is never the callname:num of a doctest) *)
Theorem C10_gather_one : forall examples e0,
  NoDup (map ex_unique examples) -> In e0 examples ->
  (forall e, In e examples -> ex_callname e <> ex_unique e0) ->
  gather (C_name (ex_unique e0)) examples = [e0].
Proof.
  intros examples e0 ND Hin NC. unfold gather. apply (filter_unique_key ex_unique); try assumption.
  - unfold names. rewrite eqb_str_refl. apply orb_true_r.
  - intros e He. unfold names. intros H. apply orb_true_iff in H. destruct H as [H|H]; apply eqb_str_spec in H.
    + exfalso. apply (NC e He). symmetry. exact H.
    + symmetry. exact H.
Qed.
Print Assumptions C10_gather_one.

(* `list` names every collected doctest *)
Theorem C10_list_names_all : forall examples,
  listed examples = map ex_unique examples /\ length (listed examples) = length examples.
Proof. intros examples. unfold listed. split; [reflexivity | apply map_length]. Qed.
Print Assumptions C10_list_names_all.
