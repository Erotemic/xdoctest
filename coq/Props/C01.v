(* C01 — Doctest code runs exactly as written: each statement once, in order.
   PARTIAL: the slicing into statements, the visiting order, the single run loop and the capture bookkeeping
   are proved over the models; that CPython's compile/exec/eval/asyncio.run of a slice behaves like the same
   statements inside the whole program (one namespace dict threaded through all parts) is runtime behaviour and
   is checked on the implementation against a plain exec of the de-prompted source. *)
From XD Require Import Model.RunLoop Model.Proc Proofs.RunProofs Proofs.C01Proofs Proofs.ProcProofs
  Proofs.ChunkProofs Spec.Partition Proofs.Reparse Proofs.SourceRun.

(* the parts handed to exec form a strictly increasing sequence of positions: every part at most once, in
   source order, for every behaviour of the parts; likewise the skipped ones *)
Theorem C01_each_once_in_order : forall requires_met cfg oc ps,
  let st := run_parts requires_met cfg oc (init_state cfg) 0 ps in
  Increasing (r_executed st) /\ Increasing (r_skipped st) /\
  (forall j, In j (r_executed st) -> (j < length ps)%nat).
Proof.
  intros requires_met cfg oc ps st.
  destruct (final_dealt requires_met cfg oc ps) as (k & Hk & D & _). destruct (dealt_increasing _ _ _ D).
  repeat split; try assumption. intros j Hj. pose proof (proj1 (dealt_in _ _ _ D j) (or_intror Hj)). lia.
Qed.
Print Assumptions C01_each_once_in_order.

(* while nothing fails, every part is visited (executed or skipped by a directive / for having no code) *)
Theorem C01_all_visited : forall requires_met cfg oc ps,
  let st := run_parts requires_met cfg oc (init_state cfg) 0 ps in
  r_end st = E_running ->
  r_failed st = None /\ forall j, (j < length ps)%nat -> In j (r_executed st) \/ In j (r_skipped st).
Proof. exact running_all_visited. Qed.
Print Assumptions C01_all_visited.

(* statement starts: exactly the lines where the ast starts a statement (first decorator included) and that carry
   the primary prompt; a line with the '...' prompt or no prompt never starts a part *)
Theorem C01_ps1_are_statement_starts : forall o src ps1 mode, locate_ps1 o src = Ok (ps1, mode) ->
  exists stmts, (forall x, In x ps1 <->
                   (exists s, In s stmts /\ st_line s = x) /\
                   (forall l, nth_error src x = Some l -> eqb_str (firstn 4 l) PS1sp = true)).
Proof. exact ps1_are_statement_starts. Qed.
Print Assumptions C01_ps1_are_statement_starts.

(* the stdout recorded for each part is exactly what that part wrote while it ran: nothing lost, duplicated
   or attributed to another part, whatever the parts do to sys.stdout *)
Theorem C01_capture_exact : forall s bodies,
  snd (run_proc s bodies) = map captured bodies /\
  concat (snd (run_proc s bodies)) = p_cap_text (fst (run_proc s bodies)).
Proof. exact capture_exact. Qed.
Print Assumptions C01_capture_exact.

(* tabs: expansion is the first step of parsing and is idempotent, so a docstring whose indentation is written
   with tabs parses exactly like its expanded form, for every oracle *)
Theorem C01_tab_expansion : forall o s, parse o (expandtabs s) = parse o s.
Proof. intros o s. unfold parse, normalize_docstring. rewrite expandtabs_idempotent. reflexivity. Qed.
Print Assumptions C01_tab_expansion.

(* slicing: the executable lines of the parts of a chunk are the chunk's de-prompted source lines, each line in
   exactly one part and in the original order -- whatever the tokenizer, ast and directive oracles answer *)
Theorem C01_parts_partition_source : forall o raw_src raw_want lineno ps,
  package_chunk o raw_src raw_want lineno = Ok ps ->
  concat (map exec_lines ps) = map (skipn 4) (dedent_chunk raw_src).
Proof. intros o raw_src raw_want lineno ps H. exact (proj1 (proj2 (package_chunk_partition o raw_src raw_want lineno ps H))). Qed.
Print Assumptions C01_parts_partition_source.

(* while nothing fails, the parts handed to exec are exactly the parts that were not skipped (by a directive, or for holding
   no code), each once and in source order -- for every behaviour of the parts and of the REQUIRES oracle *)
Theorem C01_executed_are_the_unskipped : forall requires_met cfg oc ps,
  let st := run_parts requires_met cfg oc (init_state cfg) 0 ps in
  r_end st = E_running -> r_executed st = unskipped (r_skipped st) (length ps).
Proof. exact executed_are_the_unskipped. Qed.
Print Assumptions C01_executed_are_the_unskipped.

(* end to end over the two models (parser and run loop): for a parsed docstring in which nothing is skipped and nothing
   fails, the parts handed to exec are all the parts in order, and the lines they hold are the de-prompted source lines of
   the docstring's chunks, each once, in order -- for every tokenizer / ast / directive oracle and every part behaviour *)
Theorem C01_executed_is_source : forall requires_met cfg oc o s items,
  parse o s = Parsed items ->
  let ps := parts_of items in
  let st := run_parts requires_met cfg oc (init_state cfg) 0 ps in
  r_end st = E_running -> r_skipped st = [] ->
  exists (ll : list (label * str)) gs,
    length ll = length (srclines (normalize_docstring s)) /\
    Forall2 SameLineUpToHack ll (srclines (normalize_docstring s)) /\
    flatten_chunks gs = map snd ll /\
    r_executed st = seq 0 (length ps) /\
    concat (map exec_lines ps) = concat (map chunk_exec gs).
Proof.
  intros requires_met cfg oc o s items HP ps st HE HS.
  destruct (parse_partition o s items HP) as (ll & gs & A & B & C & T).
  exists ll, gs. split; [exact A|]. split; [exact B|]. split; [exact C|]. split.
  - apply (all_executed_in_order requires_met cfg oc ps HE HS).
  - apply (tiled_exec gs 0 items T).
Qed.
Print Assumptions C01_executed_is_source.
