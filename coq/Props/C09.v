(* C09 — Every failure is recorded and rendered; one bad doctest never aborts the run.
   Model: Model/RunLoop.v (the exception ladder of DocTest.run, every raising site an oracle outcome: directive update,
   pre-import, compile, exec/eval, check, traceback search), Model/Runner.v (_run_examples), Model/Report.v. *)
From XD Require Import Model.Runner Model.Report Proofs.RunDecide Proofs.RunEscape Proofs.RunnerProofs
  Proofs.ReportProofs.

(* whatever the parts do (wrong output, exception, compile-only error, raising repr, import failure, malformed directive,
   running event loop), wherever, a run asked to return errors returns a summary, marked failed iff a failure was recorded *)
Theorem C09_return_never_raises : forall requires_met cfg oc,
  c_on_error cfg = OE_return -> HasDoctestFrame oc -> NoBaseException oc -> OracleTotal requires_met ->
  forall ps, c_pytest_mode cfg = false ->
  exists sm st, run requires_met cfg oc ps = R_summary sm st /\ (s_failed sm = true <-> r_failed st <> None).
Proof.
  intros requires_met cfg oc Hret Hframe Hbase Htotal ps Hpy. unfold run.
  pose proof (run_parts_tame requires_met cfg oc Hret Hframe Hbase Htotal ps (init_state cfg) 0%nat (or_introl eq_refl)) as T.
  set (st := run_parts requires_met cfg oc (init_state cfg) 0 ps) in *.
  assert (F : s_failed (post_run (length ps) st) = true <-> r_failed st <> None).
  { unfold post_run; simpl. destruct (r_failed st); split; congruence. }
  rewrite Hpy, andb_false_r.
  destruct T as [X|[X|X]]; rewrite X; eexists; eexists; (split; [reflexivity | exact F]).
Qed.
Print Assumptions C09_return_never_raises.

(* every failure kind is recorded as a failure of the part where it happened *)
Theorem C09_compile_error_recorded : forall requires_met cfg oc s i p rs',
  Ready requires_met cfg s p rs' -> oc i = O_compile_error ->
  fails_with (step requires_met cfg oc s i p) i F_compile.
Proof. exact step_compile_error. Qed.
Print Assumptions C09_compile_error_recorded.

Theorem C09_directive_error_recorded : forall requires_met cfg oc s i p e,
  r_end s = E_running -> part_update requires_met (r_rs s) p = UErr e ->
  fails_with (step requires_met cfg oc s i p) i F_directive.
Proof. exact step_directive_error. Qed.
Print Assumptions C09_directive_error_recorded.

Theorem C09_exception_recorded : forall requires_met cfg oc s i p rs' out last,
  Ready requires_met cfg s p rs' -> oc i = O_raise out last true -> part_want p = None ->
  fails_with (step requires_met cfg oc s i p) i F_exception.
Proof. exact step_raise_no_want. Qed.
Print Assumptions C09_exception_recorded.

(* the failing line is defined for every recorded failure: the traceback line inside the part, the first want line (got/want),
   the part's last source line (raising repr, running loop), the doctest's first line (import failure) *)
Theorem C09_failed_line_defined : forall ps st tb j f, r_failed st = Some (j, f) ->
  (j = None -> failed_line_offset ps st tb = Some O) /\
  (forall i p, j = Some i -> nth_error ps i = Some p ->
     exists o, failed_line_offset ps st tb = Some o /\
       match f with
       | F_gotwant => o = (line_offset p + length (exec_lines p))%nat
       | F_extract_repr | F_existing_loop => o = (line_offset p + length (exec_lines p) - 1)%nat
       | F_directive => o = line_offset p
       | _ => o = (line_offset p + tb - 1)%nat
       end).
Proof. exact failed_line_defined. Qed.
Print Assumptions C09_failed_line_defined.

(* when every run returns (C09_return_never_raises), every doctest of the module is run and reported, in order *)
Theorem C09_others_still_run : forall outs, AllReturn outs ->
  exists rs, run_examples outs = Some rs /\ n_total rs = length outs /\
             length (summaries_of outs) = length outs /\
             forall i, nth_error outs i = option_map RO_summary (nth_error (summaries_of outs) i).
Proof.
  intros outs AR. destruct (AllReturn_map outs AR) as [l ->]. rewrite summaries_of_map, map_length.
  eexists. split; [apply run_examples_map|]. split; [reflexivity|]. split; [reflexivity|].
  intros i. apply nth_error_map.
Qed.
Print Assumptions C09_others_still_run.

(* the native loop aborts only if some run lets an exception escape *)
Theorem C09_abort_iff_escape : forall outs, run_examples outs = None <->
  exists k, nth_error outs k = Some RO_raised /\ forall j, (j < k)%nat -> exists sm, nth_error outs j = Some (RO_summary sm).
Proof. intros outs. rewrite run_examples_none. apply run_loop_abort_iff. Qed.
Print Assumptions C09_abort_iff_escape.

(* the rendering clause (DocTest.repr_failure up to the TRACEBACK heading): every recorded failure can be rendered *)
Theorem C09_report_exists : forall exname node fpath pfx doc_lineno ps st tb offs partnos j f,
  r_failed st = Some (j, f) -> (forall i, j = Some i -> nth_error ps i <> None) ->
  exists lines, repr_failure_head exname node fpath pfx doc_lineno ps st tb offs partnos = Some lines.
Proof.
  intros exname node fpath pfx doc_lineno ps st tb offs partnos j f HF HI. unfold repr_failure_head.
  destruct (failed_line_defined ps st tb j f HF) as [A B]. destruct j as [i|].
  - destruct (nth_error ps i) as [p|] eqn:Hp; [|contradiction (HI i eq_refl)].
    destruct (B i p eq_refl Hp) as (o & -> & _). destruct (bd_go _ _ _ _ _) as [[a b] c]. eexists. reflexivity.
  - rewrite (A eq_refl). destruct (bd_go _ _ _ _ _) as [[a b] c]. eexists. reflexivity.
Qed.
Print Assumptions C09_report_exists.

(* ... and the report names the exception type (first line) and the failing line, in the doctest and in the file *)
Theorem C09_report_names_type_and_line : forall exname node fpath pfx doc_lineno ps st tb offs partnos lines,
  repr_failure_head exname node fpath pfx doc_lineno ps st tb offs partnos = Some lines ->
  exists fo, failed_line_offset ps st tb = Some fo /\
    failed_lineno doc_lineno ps st tb = Some (doc_lineno + fo)%nat /\
    nth_error lines 0 = Some (REASON ++ exname) /\
    nth_error lines 2 = Some (XDOC_OPEN ++ node ++ LINE_MID ++ decimal (fo + 1) ++ WRT_DOCTEST) /\
    nth_error lines 3 = Some (FILE_OPEN ++ fpath ++ LINE_MID ++ decimal (doc_lineno + fo) ++ COMMA ++ WRT_FILE) /\
    last lines [] = pfx ++ TRACEBACK_HDR.
Proof.
  intros exname node fpath pfx doc_lineno ps st tb offs partnos lines. unfold repr_failure_head, failed_lineno.
  destruct (failed_line_offset ps st tb) as [fo|]; [|discriminate].
  destruct (bd_go _ _ _ _ _) as [[a b] c]. intros [= <-].
  exists fo. split; [reflexivity|]. split; [reflexivity|]. split; [reflexivity|]. split; [reflexivity|]. split; [reflexivity|].
  (* injection has computed the five head lines into conses; what follows them ends with the heading *)
  rewrite !app_assoc. exact (last_last (_ :: _ :: _ :: _ :: _ :: _) _ _).
Qed.
Print Assumptions C09_report_names_type_and_line.

(* the part breakdown: every executed part once and in order -- those before the failing part under "Passed Parts", the
   failing part alone under "Failed Part", the rest under "Remaining Parts"; skipped parts left out *)
Theorem C09_breakdown_of_report : forall (texts : list str) j text sk lg,
  nth_error texts j = Some text -> mem_nat j sk = false ->
  bd_go (combine (seq 0 (length texts)) texts) sk (Some j) lg 0 =
  (entries lg sk (combine (seq 0 j) (firstn j texts)), bd_entry lg j text,
   entries lg sk (combine (seq (S j) (length texts - S j)) (skipn (S j) texts))).
Proof.
  intros texts j text sk lg H Hj. rewrite (combine_seq_split texts j text H 0). cbn [Nat.add].
  apply breakdown_split; [apply combine_seq_neq; lia | apply combine_seq_neq; lia | exact Hj].
Qed.
Print Assumptions C09_breakdown_of_report.

(* no failing part among the listed ones (import failure, or a failing part not executed): all under "Passed" *)
Theorem C09_breakdown_no_failed_part : forall its sk lg failed,
  (forall j, failed = Some j -> Forall (fun it => fst it <> j) its) ->
  bd_go its sk failed lg 0 = (entries lg sk its, [], []).
Proof. intros its sk lg failed H. exact (bd_go_rest its sk failed lg H 0). Qed.
Print Assumptions C09_breakdown_no_failed_part.
