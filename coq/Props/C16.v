(* C16 — Static and dynamic analysis find the same doctests.
   Model: Model/StaticCollect.v (TopLevelVisitor) and Model/DynCollect.v (iter_module_doctestables over the
   module that executing the same syntax tree produces: module-level definitions bind names in the module
   dict - a later binding replaces the object together with its members -, definitions in a class body bind
   names in the class dict).  PARTIAL: Python's evaluation of def/class statements is replaced by that
   abstract evaluation (validated against real imports by the harness only); doctest source is a function of
   the docstring alone (C13/C14), so equal docstrings give equal doctests for every style. *)
From XD Require Import Model.DynCollect Proofs.DynProofs.

(* for every module whose module-level definitions carry dot-free names bound once (definitions inside
   if / try / with / loops and in the else branch of the main guard included; async functions, properties with
   setters/deleters, static and class methods, nested definitions): the two analyses yield exactly the same
   callables, under the same identifiers, in the same order, with the same docstrings *)
Theorem C16_same_callables_and_docstrings : forall moddoc body,
  BoundNoDotList body -> NoDup (binds_list body) ->
  dyn_module moddoc body = visit_module moddoc body.
Proof.
  intros moddoc body HB ND. apply static_dynamic_agree_rebind; [exact HB|].
  apply NoDup_NoClassRebind. rewrite <- (proj2 binds_tbinds_both). exact ND.
Qed.
Print Assumptions C16_same_callables_and_docstrings.

(* the same under the weaker hypothesis that only CLASS names are not bound again: functions may be defined
   twice (conditional redefinition, overload stubs followed by the implementation) or be replaced by a class
   later; both analyses then report the last definition, once *)
Theorem C16_same_with_redefinitions : forall moddoc body,
  BoundNoDotList body -> NoClassRebind (tbinds_list body) ->
  dyn_module moddoc body = visit_module moddoc body.
Proof. exact static_dynamic_agree_rebind. Qed.
Print Assumptions C16_same_with_redefinitions.

(* that hypothesis is met by a module that defines f twice and replaces the function g by a class g *)
Theorem C16_redefinition_example :
  let F := [102%N] in let G := [103%N] in
  let body := [SNode NK_Func F false (Some 1%nat) []; SNode NK_Func G false None [];
               SNode NK_Other [] false None [SNode NK_Func F false (Some 2%nat) []];
               SNode NK_Class G false (Some 3%nat) [SNode NK_Func F false (Some 4%nat) []]] in
  NoClassRebind (tbinds_list body) /\ ~ NoDup (binds_list body) /\
  visit_module None body = [(F, Some 2%nat); (G, Some 3%nat); (G ++ [DOT] ++ F, Some 4%nat)].
Proof. exact redefinition_allowed. Qed.
Print Assumptions C16_redefinition_example.

(* inside a class body the two traversals coincide unconditionally *)
Theorem C16_class_members_agree : forall n c acc, dyn (Some c) n acc = visit (Some c) n acc.
Proof. apply dyn_in_class_both. Qed.
Print Assumptions C16_class_members_agree.

(* the hypothesis is needed: rebinding a class name makes static analysis keep the members of the replaced
   class while dynamic analysis cannot see them (outside "defined by ordinary def/class statements once") *)
Theorem C16_rebinding_differs :
  exists body, map fst (visit_module None body) <> map fst (dyn_module None body).
Proof. eexists. destruct rebinding_differs as [-> ->]. discriminate. Qed.
Print Assumptions C16_rebinding_differs.
