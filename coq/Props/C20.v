(* C20 — Backwards compatible: what passes under the standard doctest module passes here.
   PARTIAL, the full statement REFUTED on the unchanged tree: the classes of doctests that pass under the standard
   module and not here are the findings F6 - F6k (KNOWN_FINDINGS.json; each re-evaluated on the real code every run).
   Proved is the part that holds: what the standard module accepts by EXACT comparison (own output, echoed value,
   final line of an expected traceback) xdoctest accepts under every flag setting; what its wildcard matcher accepts,
   xdoctest's accepts; what its whole output comparison (Model/StdOutput.v) accepts, check_output accepts in
   xdoctest's default state, under hypotheses that exclude F6d, F6f, F6g, F6h, F6i (witnesses below).  The harness
   uses the standard module as an executable oracle. *)
From XD Require Import Model.RunLoop Proofs.CheckerProofs Proofs.WordsFacts Proofs.RunWant Proofs.RunDecide
  Proofs.CompatProofs Proofs.StdEllipsisProofs Model.StdOutput Proofs.StdOutputProofs Spec.EllipsisSpec
  Proofs.EllCollapse Proofs.StdOutputFull.

(* the standard OutputChecker's first test is got == want: under every flag setting xdoctest accepts that *)
Theorem C20_exact_output_accepted : forall fl got want, got = want -> check_output fl got want = true.
Proof. intros fl got want ->. apply check_output_identical. Qed.
Print Assumptions C20_exact_output_accepted.

(* a want equal to the output of its own example passes, whatever the earlier examples printed *)
Theorem C20_exact_want_passes : forall fl want um got ev, ReprSafe ev -> got = want ->
  part_check fl want um got ev = GW_ok.
Proof.
  intros fl want um got ev Hs ->. apply (part_check_ok_iff fl want um want ev Hs).
  exists want. split; [apply candidate_last|].
  unfold CandOK. destruct ev as [|r|].
  - apply check_output_identical.
  - destruct want as [|c w]; [right|left; split; [discriminate|]]; try apply check_output_identical.
    unfold check_output. reflexivity.
  - unfold ReprSafe in Hs. congruence.
Qed.
Print Assumptions C20_exact_want_passes.

(* the echoed value of an expression example is accepted against its repr *)
Theorem C20_echoed_value_passes : forall fl r, r <> [] -> check_got_vs_want fl r [] (EvalRepr r) = GW_ok.
Proof. intros fl r H. unfold check_got_vs_want. simpl. rewrite check_output_identical. reflexivity. Qed.
Print Assumptions C20_echoed_value_passes.

(* an expected traceback whose final line is the raised exception's final line passes *)
Theorem C20_exact_traceback_passes : forall fl last want, extract_exc_want want = Some last ->
  check_exception fl last want = Some true.
Proof.
  intros fl last want H. destruct (check_exception_spec fl last want last H) as [[_ A] _]. apply A.
  left. apply check_output_identical.
Qed.
Print Assumptions C20_exact_traceback_passes.

(* the full statement is false of the faithful model: F6, an expression example that writes to stdout and has a value
   (the standard module wants the output followed by the repr; witness in Proofs/CompatProofs.v) *)
Theorem C20_compat_refuted_F6 :
  part_check default_flags f6_want [] f6_stdout (EvalRepr f6_repr) = GW_gotwant.
Proof. vm_compute. reflexivity. Qed.
Print Assumptions C20_compat_refuted_F6.

(* ELLIPSIS: what the standard wildcard matcher (doctest._ellipsis_match, Model/StdDoctest.v, run against the
   interpreter's own by the harness) accepts, xdoctest's accepts -- for all texts, any number of markers *)
Theorem C20_std_ellipsis_accepted : forall want got,
  std_ellipsis_match want got = true -> ellipsis_match got want = true.
Proof. exact std_ellipsis_implies_xdoctest. Qed.
Print Assumptions C20_std_ellipsis_accepted.

(* what the proof rests on: both matchers cut the want at the same markers; xdoctest's pieces are the standard ones
   with text shaved off next to the markers *)
Theorem C20_splits_related : forall s, PRel [] (split_std s) (split_ell s).
Proof. exact split_std_ell_related. Qed.
Print Assumptions C20_splits_related.

(* the converse does not hold (xdoctest is the more permissive one): got 'axb' against want 'a ... b' *)
Theorem C20_xdoctest_accepts_more :
  ellipsis_match [97;120;98]%N [97;32;46;46;46;32;98]%N = true /\
  std_ellipsis_match [97;32;46;46;46;32;98]%N [97;120;98]%N = false.
Proof. exact xdoctest_accepts_more. Qed.
Print Assumptions C20_xdoctest_accepts_more.

(* the matcher is the more permissive one, the whole comparison is not: F6f -- the standard matcher accepts the got b'abc'
   for the want b... , xdoctest's check_output (default state) removes the string-prefix letter from the got only and rejects *)
Theorem C20_compat_refuted_F6f :
  std_ellipsis_match f6f_want f6f_got = true /\ check_output default_flags f6f_got f6f_want = false.
Proof. vm_compute. split; reflexivity. Qed.
Print Assumptions C20_compat_refuted_F6f.

(* the whole comparison of the standard OutputChecker (Model/StdOutput.v: exact, True-for-1, <BLANKLINE> rewriting,
   NORMALIZE_WHITESPACE = n, ELLIPSIS = e; tied to CPython's doctest.OutputChecker by correspondence) implies check_output
   in xdoctest's default state, for every flag setting a '# doctest:' directive can produce.  The want is given by its
   lines (each the marker, or free of the marker text); Plain = no colour codes, no string-prefix letters in front of
   quotes, no carriage returns.  Every hypothesis is needed
   (C20_compat_refuted_F6d, _F6f, _F6g, _F6h, _F6i). *)
Theorem C20_std_output_accepted : forall e n ls got,
  ls <> [] -> Forall LineOK ls -> Plain got -> Plain (join_nl ls) ->
  contains BLANKLINE got = false ->
  true_for_1 (join_nl ls ++ [NL]) got = false ->
  (e = true -> contains marker got = false) ->
  std_check_output e n (join_nl ls ++ [NL]) got = true ->
  check_output default_flags got (join_nl ls) = true.
Proof. exact std_output_accepted. Qed.
Print Assumptions C20_std_output_accepted.

(* ... lifted to the run loop's comparison for one example (RunLoop.part_check; um = earlier output that no want has
   consumed yet): an example that is not an expression or whose value is None, compared by what it wrote, ... *)
Theorem C20_std_statement_example_passes : forall e n ls um out,
  ls <> [] -> Forall LineOK ls -> Plain out -> Plain (join_nl ls) ->
  contains BLANKLINE out = false ->
  true_for_1 (join_nl ls ++ [NL]) out = false ->
  (e = true -> contains marker out = false) ->
  std_check_output e n (join_nl ls ++ [NL]) out = true ->
  part_check default_flags (join_nl ls) um out NotEvaled = GW_ok.
Proof.
  intros e n ls um out Hne HF Hg Hw Hnm Ht Hell Hstd.
  apply part_check_ok_iff; [discriminate|]. exists out. split; [apply candidate_last|].
  cbn [CandOK]. eapply std_output_accepted; eassumption.
Qed.
Print Assumptions C20_std_statement_example_passes.

(* ... an expression example that writes nothing: the standard module compares repr(value) + newline, xdoctest the repr
   (one that BOTH writes and has a value is F6) ... *)
Theorem C20_std_expression_example_passes : forall e n ls um r,
  ls <> [] -> Forall LineOK ls -> Plain r -> Plain (join_nl ls) ->
  contains BLANKLINE (r ++ [NL]) = false ->
  true_for_1 (join_nl ls ++ [NL]) (r ++ [NL]) = false ->
  (e = true -> contains marker (r ++ [NL]) = false) ->
  std_check_output e n (join_nl ls ++ [NL]) (r ++ [NL]) = true ->
  part_check default_flags (join_nl ls) um [] (EvalRepr r) = GW_ok.
Proof.
  intros e n ls um r Hne HF Hg Hw Hnm Ht Hell Hstd.
  apply part_check_ok_iff; [discriminate|]. exists []. split; [apply candidate_last|].
  cbn [CandOK]. right.
  apply (std_output_accepted_gen e n ls (r ++ [NL]) Hne HF Hw r Hg); try assumption.
  symmetry. apply words_app_trailing. reflexivity.
Qed.
Print Assumptions C20_std_expression_example_passes.

(* ... and a raising example with an expected traceback (the block's final text against the last line of the formatted
   exception, which the standard module compares by the same OutputChecker; IGNORE_EXCEPTION_DETAIL not needed) *)
Theorem C20_std_traceback_example_passes : forall e n ls last want,
  extract_exc_want want = Some (join_nl ls) ->
  ls <> [] -> Forall LineOK ls -> Plain last -> Plain (join_nl ls) ->
  contains BLANKLINE last = false ->
  true_for_1 (join_nl ls ++ [NL]) last = false ->
  (e = true -> contains marker last = false) ->
  std_check_output e n (join_nl ls ++ [NL]) last = true ->
  check_exception default_flags last want = Some true.
Proof.
  intros e n ls last want X Hne HF Hg Hw Hnm Ht Hell Hstd.
  destruct (check_exception_spec default_flags last want (join_nl ls) X) as [[_ A] _]. apply A.
  left. eapply std_output_accepted; eassumption.
Qed.
Print Assumptions C20_std_traceback_example_passes.

(* the lemma behind the ELLIPSIS-only case: the wildcard relation survives ' '.join(text.split()) on both texts *)
Theorem C20_ellmatch_collapse : forall g w, EllMatch g w -> EllMatch (collapse_ws g) (collapse_ws w).
Proof. exact ellmatch_collapse. Qed.
Print Assumptions C20_ellmatch_collapse.

(* ... and re.split(r'\s*\.\.\.\s*') commutes with it, piece by piece *)
Theorem C20_split_collapse : forall w, split_ell (collapse_ws w) = map collapse_ws (split_ell w).
Proof. exact split_ell_collapse. Qed.
Print Assumptions C20_split_collapse.

(* the hypotheses are satisfiable under ELLIPSIS alone, where the plain comparison fails *)
Theorem C20_std_output_ellipsis_example :
  demo2_want_lines <> [] /\ Forall LineOK demo2_want_lines /\ Plain demo2_got /\ Plain (join_nl demo2_want_lines) /\
  contains BLANKLINE demo2_got = false /\ true_for_1 (join_nl demo2_want_lines ++ [NL]) demo2_got = false /\
  contains marker demo2_got = false /\
  std_check_output true false (join_nl demo2_want_lines ++ [NL]) demo2_got = true /\
  std_check_output false false (join_nl demo2_want_lines ++ [NL]) demo2_got = false.
Proof. exact demo_std_output_ellipsis_hyps. Qed.
Print Assumptions C20_std_output_ellipsis_example.

(* the hypotheses are satisfiable with a marker line and differing blanks, past the identity shortcut *)
Theorem C20_std_output_hyps_example :
  demo_want_lines <> [] /\ Forall LineOK demo_want_lines /\ Plain demo_got /\ Plain (join_nl demo_want_lines) /\
  contains BLANKLINE demo_got = false /\ true_for_1 (join_nl demo_want_lines ++ [NL]) demo_got = false /\
  std_check_output false false (join_nl demo_want_lines ++ [NL]) demo_got = true /\
  eqb_str demo_got (join_nl demo_want_lines ++ [NL]) = false.
Proof. exact demo_std_output_hyps. Qed.
Print Assumptions C20_std_output_hyps_example.

(* on these texts the unchanged code is stricter than the standard module *)
Theorem C20_compat_refuted_F6d :
  std_check_output false false (f6d_want ++ [NL]) f6d_got = true /\ check_output default_flags f6d_got f6d_want = false.
Proof. vm_compute. split; reflexivity. Qed.
Print Assumptions C20_compat_refuted_F6d.
Theorem C20_compat_refuted_F6g :
  std_check_output false false (f6g_want ++ [NL]) f6g_got = true /\ check_output default_flags f6g_got f6g_want = false.
Proof. vm_compute. split; reflexivity. Qed.
Print Assumptions C20_compat_refuted_F6g.
Theorem C20_compat_refuted_F6h :
  std_check_output true false (f6h_want ++ [NL]) f6h_got = true /\ check_output default_flags f6h_got f6h_want = false.
Proof. vm_compute. split; reflexivity. Qed.
Print Assumptions C20_compat_refuted_F6h.
Theorem C20_compat_refuted_F6i :
  std_check_output true false (f6i_want ++ [NL]) f6i_got = true /\ check_output default_flags f6i_got f6i_want = false.
Proof. vm_compute. split; reflexivity. Qed.
Print Assumptions C20_compat_refuted_F6i.
