(* C15 — pytest plugin and native runner give the same verdict for every doctest.
   Model: the two verdict functions of Model/Runner.v over ONE run-loop model (Model/RunLoop.v):
   native = run(on_error='return', mode native) + _post_run; pytest = run(on_error='raise', mode pytest)
   + pytest.skip() when every part was skipped + anything_ran(). *)
From XD Require Import Model.Runner Proofs.RunEscape Proofs.RunnerProofs Proofs.VerdictProofs.

(* for every doctest (every list of parts) and every behaviour of its parts, both front ends reach a
   verdict and it is the same one *)
Theorem C15_same_verdict : forall requires_met oc cfgN cfgP,
  c_on_error cfgN = OE_return -> c_on_error cfgP = OE_raise ->
  c_pytest_mode cfgN = false -> c_pytest_mode cfgP = true ->
  c_import_ok cfgN = c_import_ok cfgP -> c_default_state cfgN = c_default_state cfgP ->
  c_report_key cfgN = c_report_key cfgP ->
  HasDoctestFrame oc -> NoBaseException oc -> OracleTotal requires_met ->
  forall ps, exists v, native_verdict (run requires_met cfgN oc ps) = Some v /\
                       pytest_verdict (run requires_met cfgP oc ps) = Some v.
Proof. exact same_verdict. Qed.
Print Assumptions C15_same_verdict.

(* as reported: the only difference is a force-disabled doctest (skipped in pytest, omitted natively);
   the hypothesis excludes the pattern that disables under pytest only ('# pytest.skip') *)
Theorem C15_same_report : forall requires_met oc cfgN cfgP,
  c_on_error cfgN = OE_return -> c_on_error cfgP = OE_raise ->
  c_pytest_mode cfgN = false -> c_pytest_mode cfgP = true ->
  c_import_ok cfgN = c_import_ok cfgP -> c_default_state cfgN = c_default_state cfgP ->
  c_report_key cfgN = c_report_key cfgP ->
  HasDoctestFrame oc -> NoBaseException oc -> OracleTotal requires_met ->
  forall ps disabled,
    let n := native_item disabled (run requires_met cfgN oc ps) in
    let p := pytest_item disabled (run requires_met cfgP oc ps) in
    (disabled = true -> n = Rep_omitted /\ p = Rep_verdict V_skipped) /\
    (disabled = false -> exists v, n = Rep_verdict v /\ p = Rep_verdict v).
Proof.
  intros requires_met oc cfgN cfgP H1 H2 H3 H4 H5 H6 H7 H8 H9 H10 ps disabled n p. subst n p.
  unfold native_item, pytest_item. split.
  - intros ->. split; reflexivity.
  - intros ->. destruct (same_verdict requires_met oc cfgN cfgP H1 H2 H3 H4 H5 H6 H7 H8 H9 H10 ps) as (v & A & B).
    rewrite A, B. exists v. split; reflexivity.
Qed.
Print Assumptions C15_same_report.

(* the two "nothing ran" tests coincide: nothing logged <-> every part skipped *)
Theorem C15_anything_ran_iff_not_all_skipped : forall requires_met oc cfgN,
  c_on_error cfgN = OE_return -> HasDoctestFrame oc -> NoBaseException oc -> OracleTotal requires_met ->
  forall ps, let st := run_parts requires_met cfgN oc (init_state cfgN) 0 ps in
  r_failed st = None -> ps <> [] ->
  (anything_ran st = false <-> length (r_skipped st) = length ps).
Proof. intros requires_met oc cfgN _ _ _ Htotal ps st NF _. exact (anything_ran_iff requires_met cfgN oc Htotal ps NF). Qed.
Print Assumptions C15_anything_ran_iff_not_all_skipped.

(* the native command exits non-zero exactly when some doctest failed (pytest's own exit rule is pytest's) *)
Theorem C15_native_exit : forall outs rs, run_examples outs = Some rs -> AllReturn outs ->
  (exit_status rs = 1%nat <-> exists sm, In sm (summaries_of outs) /\ s_failed sm = true) /\
  (exit_status rs = 0%nat \/ exit_status rs = 1%nat).
Proof. exact exit_status_iff. Qed.
Print Assumptions C15_native_exit.
