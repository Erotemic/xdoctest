(* C14 — Malformed docstrings are contained: bad syntax never crashes collection.
   Model: Model/Parser.v (DoctestParser.parse; the tokenizer / ast / directive oracles may raise) and Model/Collect.v
   (core.parse_docstr_examples and its three styles as generators). *)
From XD Require Import Model.Parser Model.Collect Proofs.ContainProofs Proofs.CollectProofs.

(* parsing arbitrary text returns parts or raises the library's own parse error, never another exception: for EVERY
   answer of the oracles, raising ones included; the model's only other answer ("oracle entry missing") does not occur
   when the oracles answer *)
Theorem C14_parse_contained : forall o,
  (forall l, NN (o_tok o l)) -> (forall l, NN (o_ast o l)) -> (forall l, NN (o_semi o l)) -> (forall l, NN (o_dirs o l)) ->
  forall s, (exists items, parse o s = Parsed items) \/
            (exists fp e, parse o s = ParseError fp e /\ forall q, e <> E_Need q).
Proof. exact parse_contained. Qed.
Print Assumptions C14_parse_contained.

(* termination of the model is structural (Coq's guard checker); the one fuelled loop, balanced_intervals,
   starts with fuel = number of lines + 1 *)
Theorem C14_intervals_fuel : forall bal lines,
  balanced_intervals bal lines = intervals_go bal lines (S (length lines)) (length lines) (length lines).
Proof. reflexivity. Qed.
Print Assumptions C14_intervals_fuel.

(* extracting examples never propagates when the producers raise only the parser's errors (all that parse raises:
   C14_parse_contained) *)
Theorem C14_examples_contained : forall st split parsed, OnlyParseErrors split parsed ->
  c_propagates (contain (style_examples st split parsed)) = false.
Proof.
  intros st split parsed H. pose proof (style_raise_not_other st split parsed H) as N. unfold contain.
  destruct (g_raise (style_examples st split parsed)) as [[| |]|]; try reflexivity. congruence.
Qed.
Print Assumptions C14_examples_contained.

(* broken syntax produces a warning ... *)
Theorem C14_warned_iff_failed : forall g, c_warned (contain g) = true <-> g_raise g <> None.
Proof. intros g. unfold contain. destruct (g_raise g) as [[| |]|]; simpl; split; congruence. Qed.
Print Assumptions C14_warned_iff_failed.

(* ... and no example for that docstring (freeform) / for the broken block and every later one (google) *)
Theorem C14_freeform_broken_no_example : forall e,
  g_items (freeform_examples (inl e)) = [] /\ g_raise (freeform_examples (inl e)) = Some e.
Proof. split; reflexivity. Qed.
Print Assumptions C14_freeform_broken_no_example.

Theorem C14_google_blocks : forall bs,
  let ex := filter gb_is_example bs in
  g_items (google_examples (Some bs)) = number_from 0 (good_prefix ex) /\
  map e_num (g_items (google_examples (Some bs))) = seq 0 (length (good_prefix ex)) /\
  (forall b, In b (good_prefix ex) -> gb_parse b = None /\ gb_is_example b = true /\ In b bs) /\
  (g_raise (google_examples (Some bs)) = None <-> good_prefix ex = ex).
Proof. exact google_examples_spec. Qed.
Print Assumptions C14_google_blocks.

(* the other docstrings of the same module are unaffected *)
Theorem C14_others_unaffected : forall st a d b,
  collect_module st (a ++ d :: b) =
  collect_module st a ++ contain (style_examples st (fst d) (snd d)) :: collect_module st b.
Proof. intros st a d b. unfold collect_module. rewrite map_app. reflexivity. Qed.
Print Assumptions C14_others_unaffected.
