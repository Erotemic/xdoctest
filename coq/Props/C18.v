(* C18 — Displayed doctest source is faithful and re-parses to the same doctest.
   Model: Model/Format.v (DoctestPart.format_part, DocTest.format_src, utils.add_line_numbers).
   Proved: the displayed lines ARE the parsed lines, and what every displayed number is; the re-parse clause for
   docstrings made of prose and runs of well-formed examples (Spec/Labels.v; no tab or line-break character in their
   lines), one indentation per run.
   PARTIAL (hence `_partial`): a want-less example followed by prose and more examples, and the docstrings that are not
   well-formed, are tested only (the re-parse is checked on the implementation for every generated doctest). *)
From XD Require Import Model.Format Spec.Partition Spec.Labels Proofs.ParserProofs Proofs.ChunkProofs
  Proofs.FormatProofs Proofs.FormatTrailing Proofs.GroupLocal Proofs.Reparse.

(* without colours or numbers, with or without prompts and wants: each source line and each want line of each part,
   once and in order (for parts whose lines hold no line-break characters) *)
Theorem C18_format_lines : forall parts want prefix offset lineno,
  parts <> [] -> Forall CleanPart parts -> Forall (SrcNonEmpty prefix) parts ->
  split_on NL (format_src parts false want offset prefix false lineno) = concat (map (shown want prefix) parts).
Proof.
  intros parts want prefix offset lineno NE HC HS.
  pose proof (Forall_impl _ (CleanPart_shown want prefix) HC) as HL.
  rewrite format_src_text by assumption. apply split_join.
  - destruct parts as [|p r]; [contradiction|]. inversion HS as [|? ? Hp _]; subst. cbn. unfold shown, SrcNonEmpty in *.
    destruct (if prefix then orig_lines p else exec_lines p); [contradiction | discriminate].
  - apply Forall_concat. rewrite Forall_map. revert HL. apply Forall_impl. intros p. apply Clean_lines_NoNL.
Qed.
Print Assumptions C18_format_lines.

Theorem C18_format_part_plain : forall p want prefix startline nd, CleanPart p ->
  format_part_pieces p (mkFmt false want prefix None) startline nd =
  ((if prefix then orig_lines p else exec_lines p), (if want then want_lines p else [])).
Proof.
  intros p want prefix startline nd (A & B & C). rewrite format_part_pieces_plain.
  destruct prefix, want; rewrite ?srclines_join by assumption; reflexivity.
Qed.
Print Assumptions C18_format_part_plain.

(* with line numbers: the k-th displayed source line of a part is `<number> <line>` with
   number = startline + line_offset + k; want lines carry no number and are indented by its width *)
Theorem C18_linenos : forall (p : part) (want prefix : bool) (startline nd k : nat) (l : str), CleanPart p ->
  nth_error (if prefix then orig_lines p else exec_lines p) k = Some l ->
  let '(src, wl) := format_part_pieces p (mkFmt true want prefix None) startline (Some nd) in
  nth_error src k = Some (pad_left nd (decimal (startline + line_offset p + k)) ++ [SP] ++ l) /\
  length src = length (if prefix then orig_lines p else exec_lines p) /\
  wl = (if want then map (fun w => repeat_char SP (S nd) ++ w) (want_lines p) else []).
Proof.
  intros p want prefix startline nd k l (A & B & C) H. unfold format_part_pieces. simpl.
  rewrite (srclines_join (want_lines p) C).
  destruct prefix; rewrite ?srclines_join by assumption;
    (split; [apply add_line_numbers_nth; exact H | split; [apply add_line_numbers_length | reflexivity]]).
Qed.
Print Assumptions C18_linenos.

(* when the offsets are the positions of the parts' first lines (C13), that number minus startline is the line's
   position in the doctest: startline = 1 gives doctest-relative numbers, startline = DocTest.lineno (C08) file lines *)
Theorem C18_linenos_are_positions : forall parts base j p k,
  OffsetsArePositions base parts -> nth_error parts j = Some p -> (k < length (orig_lines p))%nat ->
  (line_offset p + k = base + length (concat (map all_lines (firstn j parts))) + k)%nat /\
  nth_error (concat (map all_lines parts)) (line_offset p + k - base) = nth_error (orig_lines p) k.
Proof. exact number_is_position. Qed.
Print Assumptions C18_linenos_are_positions.

(* str.splitlines of the joined lines gives the lines back *)
Theorem C18_splitlines_join : forall ls, Forall (fun l => Clean l /\ l <> []) ls -> splitlines (join_nl ls) = ls.
Proof. exact splitlines_join. Qed.
Print Assumptions C18_splitlines_join.

(* ... and so does the splitter of format_part and the parser since fix F28 (newlines and carriage returns only) *)
Theorem C18_srclines_join : forall ls, Forall (fun l => Clean l /\ l <> []) ls -> srclines (join_nl ls) = ls.
Proof. exact srclines_join. Qed.
Print Assumptions C18_srclines_join.

(* lines that may be EMPTY (inside a bracket; the bare '...' that closes a block in front of the output): the splitter
   gives every line back except an empty LAST one, and so does the display of a part *)
Theorem C18_srclines_join_all : forall ls, Forall Clean ls -> srclines (join_nl ls) = drop_last_empty ls.
Proof. exact srclines_join_all. Qed.
Print Assumptions C18_srclines_join_all.

Theorem C18_format_part_lines_all : forall p want prefix startline nd, BreakFreePart p ->
  format_part_pieces p (mkFmt false want prefix None) startline nd =
  (drop_last_empty (if prefix then orig_lines p else exec_lines p), (if want then drop_last_empty (want_lines p) else [])).
Proof. exact format_part_plain_all. Qed.
Print Assumptions C18_format_part_lines_all.

(* with prompts every line carries its prompt, so nothing is lost, also behind a bare terminator ... *)
Theorem C18_format_part_prompted_complete : forall p want startline nd, BreakFreePart p ->
  Forall (fun l : str => l <> []) (orig_lines p) -> Forall (fun l : str => l <> []) (want_lines p) ->
  format_part_pieces p (mkFmt false want true None) startline nd = (orig_lines p, (if want then want_lines p else [])).
Proof.
  intros p want startline nd H Ho Hw. rewrite format_part_plain_all by exact H.
  rewrite (drop_last_empty_nonempty _ Ho), (drop_last_empty_nonempty _ Hw). reflexivity.
Qed.
Print Assumptions C18_format_part_prompted_complete.

(* ... without prompts exactly the terminator's empty line is not shown (the check's `shown_source`) *)
Theorem C18_format_part_promptless_terminator : forall p body want startline nd, BreakFreePart p -> body <> [] ->
  exec_lines p = body ++ [[]] ->
  fst (format_part_pieces p (mkFmt false want false None) startline nd) = body.
Proof.
  intros p body want startline nd H Hb E. rewrite format_part_plain_all by exact H. cbn [fst]. rewrite E.
  apply drop_last_empty_snoc. exact Hb.
Qed.
Print Assumptions C18_format_part_promptless_terminator.

Theorem C18_terminated_part_example :
  BreakFreePart demo_terminated_part /\
  (format_part_pieces demo_terminated_part (mkFmt false true true None) 1 None =
    (orig_lines demo_terminated_part, [[122%N]])) /\
  (format_part_pieces demo_terminated_part (mkFmt false true false None) 1 None =
    ([[105;102;32;120;58]; [32;32;32;32;121]]%N, [[122%N]])).
Proof. exact demo_terminated_display. Qed.
Print Assumptions C18_terminated_part_example.

(* the display in terms of the DOCSTRING: with prompts and wants, without colours or numbers, it is the docstring's source
   and want lines chunk by chunk, each chunk de-indented by the indentation of its first line, prose left out -- for every
   tokenizer oracle and every ast oracle that reports statement starts inside the source (AstInRange) *)
Theorem C18_display_is_docstring : forall o s items off lineno,
  AstInRange o -> parse o s = Parsed items -> Forall ShownOK (parts_of items) ->
  exists (ll : list (label * str)) gs,
    length ll = length (srclines (normalize_docstring s)) /\
    Forall2 SameLineUpToHack ll (srclines (normalize_docstring s)) /\
    flatten_chunks gs = map snd ll /\
    format_src (parts_of items) false true off true false lineno = join_nl (concat (map chunk_shown gs)).
Proof.
  intros o s items off lineno HR HP HS. apply parse_parsed in HP. destruct HP as (ll & gs & L & G & P). exists ll, gs.
  destruct (label_lines_partition _ _ _ L) as [A B].
  split; [exact A|]. split; [exact B|]. split; [apply group_lines_partition; exact G|].
  rewrite format_src_shown; [|exact HS | eapply package_groups_nonempty; eassumption].
  rewrite (tiled_shown gs 0 items (package_groups_tiled o gs 0 items P)). reflexivity.
Qed.
Print Assumptions C18_display_is_docstring.

(* the re-parse clause for a docstring that is one run of well-formed examples at one indentation, no prose: the display is
   the run at indentation 0, and parsing it yields the very same items (executable lines, wants, modes, offsets) -- same
   oracles; the displayed lines hold no tab and no line-break character (LineOK) *)
Theorem C18_reparse_partial : forall o ind exs s items off lineno,
  AstInRange o -> exs <> [] -> Forall (fun e => ex_ind e = ind) exs ->
  Chain (o_bal o) TEXT O (map BEx exs) ->
  srclines (normalize_docstring s) = exs_lines exs ->
  Forall LineOK (exs_lines (map ex0 exs)) ->
  parse o s = Parsed items ->
  format_src (parts_of items) false true off true false lineno = join_nl (exs_lines (map ex0 exs)) /\
  parse o (format_src (parts_of items) false true off true false lineno) = Parsed items.
Proof. exact reparse_displayed. Qed.
Print Assumptions C18_reparse_partial.

(* the same with prose BEFORE and AFTER the run (the usual docstring: summary, examples, closing remarks): the display is
   the examples' lines, and parsing it again yields the same parts, each with its line offset counted from the first
   displayed line (the docstring's offsets are those shifted by the number of prose lines in front) *)
Theorem C18_reparse_prose_around_partial : forall o ind exs p0 p1 s items off lineno,
  AstInRange o -> exs <> [] -> Forall (fun e => ex_ind e = ind) exs ->
  Chain (o_bal o) TEXT O (BProse p0 :: map BEx exs ++ [BProse p1]) ->
  srclines (normalize_docstring s) = concat (map block_lines (BProse p0 :: map BEx exs ++ [BProse p1])) ->
  Forall LineOK (exs_lines (map ex0 exs)) ->
  parse o s = Parsed items ->
  format_src (parts_of items) false true off true false lineno = join_nl (exs_lines (map ex0 exs)) /\
  exists items', parse o (format_src (parts_of items) false true off true false lineno) = Parsed items' /\
                 parts_of items = map (shift (length p0)) (parts_of items').
Proof. exact reparse_prose_around. Qed.
Print Assumptions C18_reparse_prose_around_partial.

(* prose ANYWHERE (sections of prose then a run at one indentation; closing prose), provided every run that is followed by
   another run ends with an example that has a want: the display is the examples' lines, and parsing it again yields the
   same parts up to the lines they start on (executable lines, prompted lines, wants, directives, modes).
   Outside: a want-less example directly followed by prose and more examples -- the display leaves the prose out, the
   re-parse merges two chunks, and only a compositional ast oracle keeps their statements apart (tested only) *)
Theorem C18_reparse_sections_partial : forall o secs pend s items off lineno,
  AstInRange o -> secs <> [] ->
  Forall (fun sec => s_exs sec <> [] /\ Forall (fun e => ex_ind e = s_ind sec) (s_exs sec)) secs ->
  WantEndsS secs ->
  Chain (o_bal o) TEXT O (doc_blocks secs pend) ->
  srclines (normalize_docstring s) = concat (map block_lines (doc_blocks secs pend)) ->
  Forall LineOK (exs_lines (map ex0 (all_exs secs))) ->
  parse o s = Parsed items ->
  format_src (parts_of items) false true off true false lineno = join_nl (exs_lines (map ex0 (all_exs secs))) /\
  exists items', parse o (format_src (parts_of items) false true off true false lineno) = Parsed items' /\
                 map unoffset (parts_of items) = map unoffset (parts_of items').
Proof. exact reparse_sections. Qed.
Print Assumptions C18_reparse_sections_partial.

(* grouping and packaging look at labels and de-indented lines only (what the re-parse rests on) *)
Theorem C18_grouping_ignores_text_of_lines : forall g ll,
  group_lines (map (on_snd g) ll) = res_map (map (chunk_map g)) (group_lines ll).
Proof. exact group_lines_map. Qed.
Print Assumptions C18_grouping_ignores_text_of_lines.

Theorem C18_packaging_ignores_indentation : forall o ind src want n, Forall (IndLine ind) src ->
  package_chunk o (map (skipn ind) src) (map (skipn ind) want) n = package_chunk o src want n.
Proof. exact package_chunk_dedent. Qed.
Print Assumptions C18_packaging_ignores_indentation.

(* ... and at the line a chunk starts on only to number its parts *)
Theorem C18_packaging_offsets_relative : forall o s w k n,
  package_chunk o s w (k + n) = GroupLocal.res_map (map (shift k)) (package_chunk o s w n).
Proof. exact package_chunk_shift. Qed.
Print Assumptions C18_packaging_offsets_relative.
