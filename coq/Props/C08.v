(* C08 — Reported line numbers point at the real lines of the source file.
   Model: Model/Lines.v (docstring start, google / freeform doctest lines), Model/RunLoop.v (failed_lineno),
   Model/Parser.v (part offsets, C13).  Oracles: the ast's end_lineno and docstring value, the traceback's line. *)
From XD Require Import Model.Lines Model.RunLoop Proofs.LinesProofs Proofs.RunDecide Spec.Partition
  Proofs.ChunkProofs.

(* a triple-quoted docstring literal (either quote style, optional r/u prefix) opening on line s, closing on line e,
   every newline of its value a physical line break: the reported start is s *)
Theorem C08_docstring_start : forall (s e : nat) q ends starts,
  (s <= e)%nat -> ends q = true -> (q = T_double3 -> ends T_single3 = false) ->
  starts (Z.of_nat s) q = true ->
  find_docstr_start e (e - s) ends starts = Z.of_nat s.
Proof.
  intros s e q ends starts Hle He Hother Hs. unfold find_docstr_start.
  replace (Z.of_nat e - Z.of_nat (e - s))%Z with (Z.of_nat s) by lia.
  destruct q.
  - rewrite He, Hs. reflexivity.
  - rewrite (Hother eq_refl), He, Hs. reflexivity.
Qed.
Print Assumptions C08_docstring_start.

(* a literal that is not triple quoted sits on one line *)
Theorem C08_docstring_start_one_line : forall e n ends starts,
  ends T_single3 = false -> ends T_double3 = false -> find_docstr_start e n ends starts = Z.of_nat e.
Proof. intros e n ends starts H1 H2. unfold find_docstr_start. rewrite H1, H2. reflexivity. Qed.
Print Assumptions C08_docstring_start_one_line.

(* google: the groups tile the docstring, so a block's offset is the position of its tag line ... *)
Theorem C08_google_offsets_are_positions : forall ids, Tiles 0 (google_group_offsets ids) (length ids).
Proof.
  intros ids. unfold google_group_offsets. destruct ids as [|g r]; [constructor|].
  pose proof (group_runs_tile (g :: r) g 0%nat 0%nat) as H. simpl in H |- *. exact H.
Qed.
Print Assumptions C08_google_offsets_are_positions.

(* what tiling gives for the i-th group *)
Theorem C08_tiles_nth : forall a rs b, Tiles a rs b -> forall i o l, nth_error rs i = Some (o, l) ->
  (a <= o)%nat /\ (o + l <= b)%nat /\ o = (a + fold_left (fun acc ol => acc + snd ol) (firstn i rs) 0)%nat.
Proof.
  induction 1 as [a0|a0 len r b0 Hl Ht IH]; intros i o l H; [destruct i; discriminate|].
  destruct i as [|i]; simpl in H.
  - inversion H; subst. simpl. pose proof (Tiles_le _ _ _ Ht). lia.
  - destruct (IH i o l H) as (A & B & C). simpl firstn. simpl fold_left. rewrite fold_sum_shift. lia.
Qed.
Print Assumptions C08_tiles_nth.

(* ... and the example starts on the line after it (doclineno: 1-based line of the opening quotes) *)
Theorem C08_google_example_line : forall doclineno offset,
  google_example_lineno doclineno offset = (doclineno + (offset + 1))%nat.
Proof. intros doclineno offset. unfold google_example_lineno. lia. Qed.
Print Assumptions C08_google_example_line.

(* freeform: the doctest starts as many lines (curr_offset) below the docstring's first line as the text parts (and
   skipped blocks) in front of its first part hold; with C13 that is the first line of the first kept part *)
Theorem C08_freeform_lineno : forall doclineno pre n rest,
  (forall it, In it pre -> match it with FText _ sk => sk = false | FPart _ => False end) ->
  freeform_example_lineno doclineno (pre ++ FPart n :: rest) =
  Some (doclineno + fold_left (fun a it => a + match it with FText k _ => k | FPart k => k end) pre 0)%nat.
Proof.
  intros doclineno pre n rest Hpre. unfold freeform_example_lineno. rewrite (freeform_go_texts pre n rest Hpre).
  edestruct freeform_go_kept as [k' ->]. reflexivity.
Qed.
Print Assumptions C08_freeform_lineno.

(* the failing line: DocTest.lineno plus its offset inside the doctest, which is the traceback line inside the
   failing part / the first want line / the last source line (C09_failed_line_defined) *)
Theorem C08_failed_lineno : forall doc_lineno ps st tb o,
  failed_line_offset ps st tb = Some o -> failed_lineno doc_lineno ps st tb = Some (doc_lineno + o)%nat.
Proof. intros doc_lineno ps st tb o. unfold failed_lineno. intros ->. reflexivity. Qed.
Print Assumptions C08_failed_lineno.

Theorem C08_failed_line_offset : forall ps st tb j f, r_failed st = Some (j, f) ->
  (j = None -> failed_line_offset ps st tb = Some O) /\
  (forall i p, j = Some i -> nth_error ps i = Some p ->
     exists o, failed_line_offset ps st tb = Some o /\
       match f with
       | F_gotwant => o = (line_offset p + length (exec_lines p))%nat
       | F_extract_repr | F_existing_loop => o = (line_offset p + length (exec_lines p) - 1)%nat
       | F_directive => o = line_offset p
       | _ => o = (line_offset p + tb - 1)%nat
       end).
Proof. exact failed_line_defined. Qed.
Print Assumptions C08_failed_line_offset.

(* the `line_offset p` above: the parts of a chunk that begins at docstring line n lie back to back from n on, each
   offset the index of the part's first line (AstInRange: statements start on lines of the source handed over) *)
Theorem C08_part_offsets : forall o raw_src raw_want lineno ps,
  AstInRange o -> package_chunk o raw_src raw_want lineno = Ok ps ->
  Consecutive lineno ps (lineno + length raw_src).
Proof. exact package_chunk_consecutive. Qed.
Print Assumptions C08_part_offsets.
