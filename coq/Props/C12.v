(* C12 — Process-global state is restored after every outcome.
   Model: Model/Proc.v (CaptureStdout, the warnings.catch_warnings bracket and PythonPathContext with their
   placement in DocTest.run / _custom_import_modpath); a doctest body is ANY finite sequence of writes and of
   replacements of sys.stdout / the warnings filter state / showwarning; every bracket is a `with`, so how the
   body ends (normally, Exception, SystemExit/KeyboardInterrupt propagating) does not change what __exit__ does. *)
From XD Require Import Model.Proc Proofs.BaseFacts Proofs.ProcProofs.

(* after a run: sys.stdout and sys.stderr are the original objects, warning filters and showwarning unchanged,
   whatever the executed parts did, for any number of parts *)
Theorem C12_run_restores : forall s bodies,
  let s' := fst (run_proc s bodies) in
  p_stdout s' = p_stdout s /\ p_stderr s' = p_stderr s /\
  p_filters s' = p_filters s /\ p_showwarning s' = p_showwarning s.
Proof. intros s bodies. destruct (run_proc_spec s bodies) as (s1 & E & A & B & _). rewrite E. simpl. auto. Qed.
Print Assumptions C12_run_restores.

(* one `with cap:` block puts the original stdout back *)
Theorem C12_capture_restores : forall orig pos s body,
  let '(s', _, _) := with_cap orig pos s body in p_stdout s' = orig /\ p_stderr s' = p_stderr s.
Proof.
  intros orig pos s body. unfold with_cap. simpl.
  split; [reflexivity | exact (proj1 (do_ops_spec body (set_stdout s CAP)))].
Qed.
Print Assumptions C12_capture_restores.

(* PythonPathContext around a body that leaves sys.path alone restores sys.path exactly, for every
   admissible index (0, -1 and every other in range) *)
Theorem C12_path_context : forall path d index,
  (- Z.of_nat (length path) - 1 <= index <= Z.of_nat (length path))%Z ->
  let '(path', i) := ppc_enter path d index in ppc_exit path' d i = PPC_ok path.
Proof.
  intros path d index H. unfold ppc_enter. pose proof (ppc_index_bound _ _ H) as B.
  set (i := ppc_index (length path) index) in *. unfold ppc_exit.
  rewrite length_insert. destruct (Nat.leb_spec (S (length path)) i); [lia|].
  rewrite nth_insert by exact B. rewrite eqb_str_refl, remove_insert by exact B. reflexivity.
Qed.
Print Assumptions C12_path_context.

(* if the body changed sys.path, exit removes exactly one occurrence of the temporary entry (the one at the
   remembered index if still there, else the first), RuntimeError iff it is gone, IndexError iff the list is shorter *)
Theorem C12_path_recovery : forall path' d i,
  match ppc_exit path' d i with
  | PPC_ok p'' => exists j, nth_error path' j = Some d /\ p'' = remove_at j path' /\
                            (nth_error path' i = Some d -> j = i) /\
                            (nth_error path' i <> Some d -> forall k, (k < j)%nat -> nth_error path' k <> Some d)
  | PPC_runtime_error => ~ In d path' /\ (i < length path')%nat
  | PPC_index_error => (length path' <= i)%nat
  end.
Proof. exact path_recovery. Qed.
Print Assumptions C12_path_recovery.

(* non-vacuity: index -1 appends, and a body that rotates sys.path is still undone *)
Example C12_example :
  let p := [[97%N]; [98%N]] in let d := [100%N] in
  ppc_enter p d (-1) = ([[97%N]; [98%N]; [100%N]], 2%nat) /\
  ppc_exit [[98%N]; [100%N]; [97%N]] d 2 = PPC_ok [[98%N]; [97%N]].
Proof. vm_compute. split; reflexivity. Qed.
