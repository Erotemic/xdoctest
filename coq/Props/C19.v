(* C19 — The dump command emits valid Python holding every doctest statement in order.
   Model: runner._convert_to_test_module in Model/Format.v.  PARTIAL: proved is the structure of the text; its validity
   needs a Python grammar and is checked on the implementation (ast.parse of the real output, one FunctionDef per
   doctest, statement-by-statement comparison). *)
From XD Require Import Model.Format Proofs.FormatProofs.

(* one function per doctest, joined by two blank lines *)
Theorem C19_one_function_each : forall es,
  dump_module es = join [NL; NL; NL] (map dump_function es) /\ length (map dump_function es) = length es.
Proof. intros es. split; [reflexivity | apply map_length]. Qed.
Print Assumptions C19_one_function_each.

(* a function is its `def` header, then the body, every line behind four blanks (so inside the function's suite) *)
Theorem C19_block_indented : forall e,
  NoNL (DEF_ ++ de_func_name e ++ PARENS_COLON) ->
  let body_lines := match de_parts e with [] => [ELLIPSIS_BODY] | ps => map dump_part ps end in
  let body := join_nl ([QQQ; CONVERTED ++ de_node e; QQQ] ++ de_header e ++ body_lines) in
  split_on NL (dump_function e) =
  (DEF_ ++ de_func_name e ++ PARENS_COLON) :: map (fun l => FOUR ++ l) (split_on NL body).
Proof.
  intros e H body_lines body. unfold dump_function. fold body_lines. fold body.
  replace (DEF_ ++ de_func_name e ++ PARENS_COLON ++ [NL] ++ indent_text FOUR body)
    with ((DEF_ ++ de_func_name e ++ PARENS_COLON) ++ NL :: indent_text FOUR body)
    by (rewrite <- !app_assoc; reflexivity).
  rewrite split_on_line by exact H. rewrite indent_text_lines by exact (NoNL_forallb FOUR eq_refl). reflexivity.
Qed.
Print Assumptions C19_block_indented.

(* the body of a part: its de-prompted source lines in order, star-import lines removed, then the want as comments *)
Theorem C19_body_lines : forall p, CleanPart p -> filter no_star (exec_lines p) <> [] ->
  split_on NL (dump_part p) = dump_part_lines p.
Proof. intros p (_ & B & C). exact (dump_part_spec p B C). Qed.
Print Assumptions C19_body_lines.

(* nothing the doctest executed is lost or re-ordered across parts (star imports apart) *)
Theorem C19_order_preserved : forall ps,
  concat (map (fun p => filter no_star (exec_lines p)) ps) = filter no_star (concat (map exec_lines ps)).
Proof. intros ps. rewrite <- concat_filter_map, map_map. reflexivity. Qed.
Print Assumptions C19_order_preserved.

(* utils.indent (function body, want comments): every line of the text gets the prefix *)
Theorem C19_indent_lines : forall pfx text, NoNL pfx ->
  split_on NL (indent_text pfx text) = map (fun l => pfx ++ l) (split_on NL text).
Proof. exact indent_text_lines. Qed.
Print Assumptions C19_indent_lines.
