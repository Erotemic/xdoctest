(* C04 — Directive scoping: block persists, inline is local, skipped code never runs.
   Model: Model/Directive.v (RuntimeState, Directive.effects), the skip test of Model/RunLoop.v; Model/DirInline.v (which
   directives are block, which inline); Model/CliOptions.v (the default options as the command line gives them).
   Spec: Spec/Scoping.v (abstract machine over SKIP and the set of unmet REQUIRES). *)
From XD Require Import Model.RunLoop Spec.Scoping Proofs.BaseFacts Proofs.DirectiveProofs Proofs.RunDecide
  Model.DirInline Proofs.FormatProofs Proofs.FormatTrailing Proofs.DirInlineProofs Model.CliOptions
  Proofs.CliOptionsProofs.

(* which statements run, for EVERY sequence of directive lists (block or inline; SKIP, REQUIRES met/unmet with any
   arguments, any other flag), from every well-formed state, for every REQUIRES oracle: exactly what the abstract
   machine says -- and RuntimeState.update never raises *)
Theorem C04_scoping : forall met parts rs,
  WF rs -> Forall Uniform parts -> Forall (fun ds => forall d, In d ds -> Scoped d) parts ->
  m_run met rs parts = Some (a_run met (gview rs) parts).
Proof.
  intros met parts. induction parts as [|ds r IH]; intros rs W FU FS; cbn [m_run a_run]; [reflexivity|].
  apply Forall_cons_iff in FU as [U FU], FS as [Sc FS].
  destruct (rs_update_refines met rs ds W U Sc) as (rs' & A & B & C & D).
  rewrite A. destruct (a_part met (gview rs) ds) as [a' runs] eqn:P. simpl in C, D.
  rewrite (IH rs' B FU FS). rewrite C, D. reflexivity.
Qed.
Print Assumptions C04_scoping.

(* one update: persistent part and skip test *)
Theorem C04_update_refines : forall met rs ds,
  WF rs -> Uniform ds -> (forall d, In d ds -> Scoped d) ->
  exists rs', rs_update (fun x => Ok (met x)) rs ds = UOk rs' /\ WF rs' /\
              gview rs' = fst (a_part met (gview rs) ds) /\
              negb (rs_skips rs') = snd (a_part met (gview rs) ds).
Proof. exact rs_update_refines. Qed.
Print Assumptions C04_update_refines.

(* an inline directive leaves the persistent state untouched (all of it, not only SKIP/REQUIRES) *)
Theorem C04_inline_leaves_persistent : forall met rs ds rs',
  WF rs -> is_inline ds = true -> Uniform ds -> (forall d, In d ds -> Scoped d) ->
  rs_update (fun x => Ok (met x)) rs ds = UOk rs' -> rs_global rs' = rs_global rs.
Proof.
  intros met rs ds rs' W IL U Sc H. destruct (rs_update_view met rs ds W U Sc) as (rs1 & A & _ & C).
  rewrite A in H. injection H as <-. rewrite IL in C. exact (proj1 C).
Qed.
Print Assumptions C04_inline_leaves_persistent.

(* ... and its overlay is dropped by the next update, whatever it was *)
Theorem C04_overlay_is_dropped : forall requires_met g i1 i2 ds,
  rs_update requires_met (mkRS g i1) ds = rs_update requires_met (mkRS g i2) ds.
Proof. reflexivity. Qed.
Print Assumptions C04_overlay_is_dropped.

(* default options (boolean flags) behave like a leading block directive *)
Theorem C04_defaults_as_leading_block : forall requires_met d, BoolDefaults d ->
  (forall k v, In (k, v) d -> starts_with K_REPORT_ k = false) ->
  rs_update requires_met (rs_init []) (dirs_of_defaults d) = UOk (rs_init d).
Proof. intros requires_met d HB HR. unfold rs_update, rs_init. simpl. apply defaults_go; assumption. Qed.
Print Assumptions C04_defaults_as_leading_block.

(* the state every run starts from is well formed (non-vacuity of WF) *)
Theorem C04_initial_state_wf : forall d, BoolDefaults d -> WF (rs_init d).
Proof.
  intros d H. apply (fold_defaults_wf d H (mkRS DEFAULT_RUNTIME_STATE [])).
  constructor; simpl; [exists false; reflexivity | exists []; reflexivity | discriminate | discriminate].
Qed.
Print Assumptions C04_initial_state_wf.

(* a skipped statement has no effect at all: not executed, nothing logged or buffered, its want not compared *)
Theorem C04_skipped_no_effect : forall requires_met cfg oc s i p rs',
  r_end s = E_running -> part_update requires_met (r_rs s) p = UOk rs' ->
  rs_skips rs' || negb (has_any_code p) = true ->
  let s' := step requires_met cfg oc s i p in
  r_skipped s' = r_skipped s ++ [i] /\ r_executed s' = r_executed s /\ r_checked s' = r_checked s /\
  r_logged s' = r_logged s /\ r_unmatched s' = r_unmatched s /\ r_failed s' = r_failed s /\
  r_end s' = E_running.
Proof. exact step_skipped. Qed.
Print Assumptions C04_skipped_no_effect.

(* non-vacuity: block +SKIP, statement, inline -SKIP statement, statement, block -SKIP, statement *)
Example C04_example :
  let skip b inl := mkDirective K_SKIP b [] inl in
  a_run (fun _ => false) (mkA false [])
        [[skip true false]; []; [skip false true]; []; [skip false false]; []]
  = [false; false; true; false; true; true].
Proof. reflexivity. Qed.

(* which directives ARE block and which inline (Directive.extract's classification, since fix F31): inline iff some line
   of the statement is neither empty nor a comment ... *)
Theorem C04_inline_iff_code : forall text,
  extract_inline text = true <->
  exists l, In l (splitlines text) /\ blank_line l = false /\ comment_line l = false.
Proof. exact extract_inline_iff. Qed.
Print Assumptions C04_inline_iff_code.

(* ... so a statement of comments and empty lines only (a directive on a prompt line of its own, any spacing of empty
   prompt lines around it) gives block directives, a statement with a line of code inline ones *)
Theorem C04_comment_only_statement_is_block : forall ls,
  Forall Clean ls -> Forall (fun l => blank_line l = true \/ comment_line l = true) ls ->
  extract_inline (join_nl ls) = false.
Proof. exact comment_only_statement_is_block. Qed.
Print Assumptions C04_comment_only_statement_is_block.

Theorem C04_statement_with_code_is_inline : forall ls l,
  Forall Clean ls -> In l ls -> blank_line l = false -> comment_line l = false ->
  extract_inline (join_nl ls) = true.
Proof.
  intros ls l Hc Hl B C. apply extract_inline_iff. exists l. split; [|split; assumption].
  rewrite (splitlines_join_all ls Hc). apply drop_last_empty_keeps; [exact Hl|].
  intros E. subst l. discriminate B.
Qed.
Print Assumptions C04_statement_with_code_is_inline.

Theorem C04_block_directive_with_spacing : forall c m n, Clean c -> comment_line c = true ->
  extract_inline (join_nl (repeat [] m ++ [c] ++ repeat [] n)) = false.
Proof.
  intros c m n Hc Hk. apply comment_only_statement_is_block; apply Forall_spaced; auto. intros ? [].
Qed.
Print Assumptions C04_block_directive_with_spacing.

(* F31: the rule before the fix classified '# xdoctest: +SKIP' followed by two empty lines, or preceded by one, as inline;
   the same witnesses show that the hypotheses above are satisfiable *)
Theorem C04_block_with_spacing_refuted_before_F31 :
  extract_inline_before_F31 (join_nl [demo_directive_comment; []; []]) = true /\
  extract_inline_before_F31 (join_nl [[]; demo_directive_comment]) = true /\
  extract_inline (join_nl [demo_directive_comment; []; []]) = false /\
  extract_inline (join_nl [[]; demo_directive_comment]) = false /\
  Clean demo_directive_comment /\ comment_line demo_directive_comment = true.
Proof. repeat split; try (vm_compute; reflexivity). apply Clean_forallb. reflexivity. Qed.
Print Assumptions C04_block_with_spacing_refuted_before_F31.

(* the default options as the command line gives them (DoctestConfig._populate_from_cli on the parsed pieces of
   `--options=a,b,c`): the value of a name is the sign of its last mention ... *)
Theorem C04_cli_defaults_last_mention : forall opts k,
  dget k (populate_from_cli opts) = match last_mention k opts with Some b => Some (VBool b) | None => None end.
Proof. exact populate_get. Qed.
Print Assumptions C04_cli_defaults_last_mention.

(* ... so when no name is given twice EVERY option of the list is a default option of the run, with its own sign, and
   nothing else is; the result is a dict of boolean defaults (as C04_defaults_as_leading_block asks) *)
Theorem C04_cli_defaults_hold_every_option : forall opts, NoDup (map fst opts) ->
  forall k b, In (k, b) opts -> dget k (populate_from_cli opts) = Some (VBool b).
Proof. intros opts ND k b H. rewrite populate_get, (last_mention_nodup opts k b ND H). reflexivity. Qed.
Print Assumptions C04_cli_defaults_hold_every_option.

Theorem C04_cli_defaults_hold_nothing_else : forall opts k,
  (forall b, ~ In (k, b) opts) -> dget k (populate_from_cli opts) = None.
Proof.
  intros opts k H. rewrite populate_get. destruct (last_mention k opts) as [b|] eqn:L; [|reflexivity].
  exfalso. apply (H b). apply last_mention_in. exact L.
Qed.
Print Assumptions C04_cli_defaults_hold_nothing_else.

(* REQUIRES is left out: it has no boolean meaning *)
Theorem C04_cli_defaults_are_bool_defaults : forall opts,
  (forall b, ~ In (K_REQUIRES, b) opts) -> BoolDefaults (populate_from_cli opts).
Proof.
  intros opts H k v Hin.
  assert (F : Forall (fun kv => fst kv <> K_REQUIRES /\ exists b, snd kv = VBool b) (populate_from_cli opts)).
  { apply fill_Forall; [|constructor]. intros k' b Hk. split; [simpl; intros ->; exact (H b Hk) | exists b; reflexivity]. }
  exact (proj1 (Forall_forall _ _) F (k, v) Hin).
Qed.
Print Assumptions C04_cli_defaults_are_bool_defaults.

(* non-vacuity on '+SKIP,+IGNORE_WHITESPACE,-ELLIPSIS': all three options are recorded, not only the last *)
Theorem C04_cli_defaults_example :
  let opts := [(K_SKIP, true); (K_IGNORE_WHITESPACE, true); (K_ELLIPSIS, false)] in
  NoDup (map fst opts) /\ (forall b, ~ In (K_REQUIRES, b) opts) /\
  populate_from_cli opts = [(K_SKIP, VBool true); (K_IGNORE_WHITESPACE, VBool true); (K_ELLIPSIS, VBool false)].
Proof. exact populate_example. Qed.
Print Assumptions C04_cli_defaults_example.
