(* C05 — Output matching equals the documented relation for every flag combination. *)
From Coq Require Import String.
From XD Require Import Model.Lit Model.Checker Spec.EllipsisSpec Spec.MatchRel Proofs.CheckerProofs Proofs.MonotoneNW.

(* check_output decides exactly the documented relation, for all texts and all flags *)
Theorem C05_relation :
  forall fl got want, check_output fl got want = true <-> MatchRel fl got want.
Proof. exact check_output_iff. Qed.
Print Assumptions C05_relation.

(* identical texts always match *)
Theorem C05_identical : forall fl t, check_output fl t t = true.
Proof. exact check_output_identical. Qed.
Print Assumptions C05_identical.

(* every leniency off: exact up to the base normalisation (ANSI codes, prefix letters, trailing blanks/whitespace, CR
   lines, <BLANKLINE> iff accepted) *)
Theorem C05_strict_exact :
  forall fl got want, all_off fl -> want <> [] ->
  (check_output fl got want = true <-> got = want \/ base_got got = base_want fl want).
Proof.
  intros fl got want (E & NW & IW & NR) Hw. rewrite check_output_no_repr by exact NR.
  unfold NGot, NWant, ws_norm. rewrite NW, IW. cbn [orb]. split.
  - intros [H|[H|H]]; [contradiction | tauto | right; exact (Core_no_ellipsis _ _ _ E H)].
  - intros [H|H]; [tauto | right; right; left; exact H].
Qed.
Print Assumptions C05_strict_exact.

(* switching a leniency on never turns a match into a mismatch -- under MonoGuard *)
Theorem C05_monotone_partial :
  forall fl f got want, MonoGuard fl f ->
  check_output fl got want = true -> check_output (set_len f fl) got want = true.
Proof. exact check_output_monotone. Qed.
Print Assumptions C05_monotone_partial.

(* ... for NORMALIZE_WHITESPACE no guard on ELLIPSIS: the wildcard relation survives the collapsing of white space
   (Proofs/EllCollapse.v).  Only NORMALIZE_REPR has to be off (F7c: cannot be dropped) *)
Theorem C05_monotone_normalize_whitespace :
  forall fl got want, NORMALIZE_REPR fl = false ->
  check_output fl got want = true -> check_output (set_len L_NORMALIZE_WHITESPACE fl) got want = true.
Proof. exact check_output_monotone_nw. Qed.
Print Assumptions C05_monotone_normalize_whitespace.

(* non-vacuous: a match through the wildcard only, blanks that the collapsing changes on both sides *)
Theorem C05_monotone_normalize_whitespace_example :
  let fl := mkFlags true false false false false false false in
  let got := [97;32;32;98;32;120;10;99]%N in
  let want := [97;32;32;98;32;46;46;46;10;99]%N in
  check_output fl got want = true /\ eqb_str got want = false /\
  check_output (set_len L_NORMALIZE_WHITESPACE fl) got want = true.
Proof. exact monotone_nw_example. Qed.
Print Assumptions C05_monotone_normalize_whitespace_example.

(* ... and FALSE of the faithful model outside MonoGuard: three witnesses (F7) *)
Theorem C05_monotone_refuted_IW :
  exists fl got want, check_output fl got want = true /\
                      check_output (set_len L_IGNORE_WHITESPACE fl) got want = false.
Proof.
  exists (mkFlags true false false false false false false), (S ".a"), (S ". ...").      (* ELLIPSIS alone *)
  split; vm_compute; reflexivity.
Qed.
Print Assumptions C05_monotone_refuted_IW.

Theorem C05_monotone_refuted_ELLIPSIS :
  exists fl got want, check_output fl got want = true /\
                      check_output (set_len L_ELLIPSIS fl) got want = false.
Proof.
  exists (mkFlags false false false true false false false), (S "..."), (S "'...'").   (* NORMALIZE_REPR alone *)
  split; vm_compute; reflexivity.
Qed.
Print Assumptions C05_monotone_refuted_ELLIPSIS.

Theorem C05_monotone_refuted_NW :
  exists fl got want, check_output fl got want = true /\
                      check_output (set_len L_NORMALIZE_WHITESPACE fl) got want = false.
Proof.
  exists (mkFlags false false false true false false false), (S "' a'"), (S " a").     (* NORMALIZE_REPR alone *)
  split; vm_compute; reflexivity.
Qed.
Print Assumptions C05_monotone_refuted_NW.

(* normal forms that differ in a non-whitespace character never match a want without wildcards *)
Theorem C05_nonws_differs :
  forall fl got want, want <> [] -> got <> want -> NORMALIZE_REPR fl = false ->
  (ELLIPSIS fl = false \/ contains marker (NWant fl want) = false) ->
  nonws (NGot fl got) <> nonws (NWant fl want) ->
  check_output fl got want = false.
Proof.
  intros fl got want Hw Hg NR Hm Hn.
  destruct (check_output fl got want) eqn:E; [|reflexivity].
  apply check_output_no_repr in E; [|exact NR].
  destruct E as [E|[E|E]]; try contradiction.
  unfold Core in E. destruct E as [E|[E1 E2]].
  - rewrite E in Hn. contradiction.
  - destruct Hm as [Hm|Hm]; [congruence|].
    unfold EllMatch in E2. rewrite Hm in E2. rewrite E2 in Hn. contradiction.
Qed.
Print Assumptions C05_nonws_differs.

(* IGNORE_WHITESPACE deletes all whitespace: the collapse before it is redundant *)
Theorem C05_collapse_then_delete : forall s, delete_ws (collapse_ws s) = delete_ws s.
Proof. exact collapse_delete. Qed.
Print Assumptions C05_collapse_then_delete.

(* xdoctest's default state lies outside MonoGuard for IGNORE_WHITESPACE (ELLIPSIS is on); strict_flags satisfies
   MonoGuard and all_off *)
Example C05_ex_guard : MonoGuard default_flags L_IGNORE_WHITESPACE -> False.
Proof. intros [H _]. discriminate. Qed.
Example C05_ex_guard_ok : MonoGuard strict_flags L_NORMALIZE_WHITESPACE.
Proof. split; reflexivity. Qed.
Example C05_ex_alloff : all_off strict_flags.
Proof. repeat split. Qed.
