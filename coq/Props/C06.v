(* C06 — Ellipsis is a true wildcard. *)
From Coq Require Import String.
From XD Require Import Model.Lit Model.Checker Spec.EllipsisSpec Proofs.EllipsisProofs.

(* the matcher of checker._ellipsis_match accepts exactly the declarative relation *)
Theorem C06_ellipsis_iff :
  forall got want, ellipsis_match got want = true <-> EllMatch got want.
Proof. exact ellipsis_match_iff. Qed.
Print Assumptions C06_ellipsis_iff.

(* the greedy leftmost scan is complete and sound for "pieces in order, no overlap" *)
Theorem C06_scan_iff :
  forall pieces region, scan pieces region = true <-> InOrder pieces region.
Proof. exact scan_iff. Qed.
Print Assumptions C06_scan_iff.

(* a want containing the marker always splits into at least a first and a last piece
   (the code's `assert len(ws) >= 2` can never fire) *)
Theorem C06_split_shape :
  forall want, contains marker want = true ->
  exists w0 mids wl, split_ell want = w0 :: mids ++ [wl].
Proof. exact split_ell_shape. Qed.
Print Assumptions C06_split_shape.

(* with ELLIPSIS disabled the comparison of the normalised texts is plain equality:
   '...' has no special meaning *)
Theorem C06_disabled_is_plain :
  forall fl got want, ELLIPSIS fl = false -> check_match fl got want = eqb_str got want.
Proof. intros fl got want H. unfold check_match. rewrite H. destruct (eqb_str got want); reflexivity. Qed.
Print Assumptions C06_disabled_is_plain.

(* without a marker in the want, enabling ELLIPSIS changes nothing *)
Theorem C06_no_marker_is_plain :
  forall got want, contains marker want = false -> ellipsis_match got want = eqb_str want got.
Proof. intros got want H. unfold ellipsis_match. rewrite H. reflexivity. Qed.
Print Assumptions C06_no_marker_is_plain.

(* the relation holds and fails on two examples of _ellipsis_match's own docstring; the third: pieces cannot overlap *)
Example C06_ex_pos : EllMatch (S "best=3.4s ave=4.5s") (S "best=...s ave=...s").
Proof. apply C06_ellipsis_iff. vm_compute. reflexivity. Qed.
Example C06_ex_neg : ~ EllMatch (S "aaa") (S "aa...aa").
Proof. intro H. apply C06_ellipsis_iff in H. vm_compute in H. discriminate. Qed.
Example C06_ex_overlap : ~ EllMatch (S "ab") (S "a...b...b").
Proof. intro H. apply C06_ellipsis_iff in H. vm_compute in H. discriminate. Qed.
