(* C11 — Runs are isolated: a doctest behaves the same whatever ran before it.
   Model: Model/Isolation.v - the directive state with its mutable REQUIRES set in an explicit heap
   (RuntimeState.__init__'s deepcopy, update's in-place set.add / set.remove, the inline overlay's copy),
   over arbitrary histories of runs in one process.  PARTIAL: proved is the aliasing discipline of the directive
   state (the part that is xdoctest's logic); that exec() with a copied namespace dict does not write the module
   and that each DocTest owns its namespace is runtime behaviour, checked on the implementation. *)
From XD Require Import Model.Isolation Proofs.IsolationProofs Proofs.IsolationRefine.

(* for EVERY history of runs (any order, repetitions, any default options, any directives incl. ones that make
   update raise) every heap cell that existed before - in particular the REQUIRES set of the process-wide
   DEFAULT_RUNTIME_STATE - is left exactly as it was *)
Theorem C11_defaults_never_written : forall hist h defaults,
  firstn (length h) (exec_history h defaults hist) = h.
Proof. exact defaults_never_written. Qed.
Print Assumptions C11_defaults_never_written.

(* the same cell by cell: what the next RuntimeState copies does not depend on the history *)
Theorem C11_default_contents_stable : forall hist h defaults c,
  (c < length h)%nat -> hread (exec_history h defaults hist) c = hread h c.
Proof. exact default_contents_stable. Qed.
Print Assumptions C11_default_contents_stable.

(* one run *)
Theorem C11_run_preserves_heap : forall h defaults ds parts,
  firstn (length h) (run_directives h defaults ds parts) = h.
Proof. exact run_preserves_heap. Qed.
Print Assumptions C11_run_preserves_heap.

(* a fresh RuntimeState references only cells allocated for it (no alias into the defaults) *)
Theorem C11_fresh_state_owns_its_sets : forall h defaults ds h' st,
  hs_init h defaults ds = (h', st) -> firstn (length h) h' = h /\ Owns (length h) h' st.
Proof. exact hs_init_owns. Qed.
Print Assumptions C11_fresh_state_owns_its_sets.

(* every effect of update keeps the state inside its own cells and everything older untouched; the inline overlay of a
   set is a new cell, never the persistent one *)
Theorem C11_update_stays_in_own_cells : forall n h st e h' st',
  Owns n h st -> happly h st e = Some (h', st') -> firstn n h' = firstn n h /\ Owns n h' st'.
Proof. exact happly_owns. Qed.
Print Assumptions C11_update_stays_in_own_cells.

(* non-vacuity: a block +REQUIRES(x) in one run does not show in the defaults the next run copies *)
Example C11_example :
  let defaults := [(K_SKIP, HBool false); (K_REQUIRES, HSet 0%nat)] in
  let h0 := [[]] in
  let h1 := run_directives h0 defaults [] [[HE_set false true K_REQUIRES [120%N]]] in
  hread h1 0%nat = [] /\ hread h1 1%nat = [[120%N]].
Proof. vm_compute. split; reflexivity. Qed.

(* refinement: read through the heap, every effect of update computes exactly the state the pure RuntimeState model
   (Model/Directive.v, the one of C04) computes -- or both raise --, and keeps the state's set cells pairwise distinct:
   sharing is never observable *)
Theorem C11_heap_refines_pure_state : forall h st e, Sep h st ->
  match happly h st e with
  | Some (h', st') => apply_effect (inline_of e) (abs h st) (effect_of e) = UOk (abs h' st') /\ Sep h' st'
  | None => exists x, apply_effect (inline_of e) (abs h st) (effect_of e) = UErr x
  end.
Proof. exact happly_refines. Qed.
Print Assumptions C11_heap_refines_pure_state.

(* the directive states a run goes through are the same after ANY history of earlier runs in the process (any number
   of doctests, any order, repetitions, any options, any directives, raising updates included) as in a fresh one *)
Theorem C11_directive_states_independent_of_history : forall hist h defaults ds parts,
  (forall c, In c (cells defaults) -> (c < length h)%nat) ->
  run_trace (exec_history h defaults hist) defaults ds parts = run_trace h defaults ds parts.
Proof. exact run_trace_independent_of_history. Qed.
Print Assumptions C11_directive_states_independent_of_history.

(* and they are the pure model's states started from rs_init *)
Theorem C11_directive_states_are_the_pure_models : forall hist h defaults ds parts,
  (forall c, In c (cells defaults) -> (c < length h)%nat) ->
  abs_dict h defaults = DEFAULT_RUNTIME_STATE ->
  run_trace (exec_history h defaults hist) defaults ds parts = p_trace (rs_init (bools ds)) parts.
Proof.
  intros hist h defaults ds parts RG D.
  rewrite run_trace_independent_of_history by exact RG. rewrite run_trace_pure by exact RG.
  rewrite D. reflexivity.
Qed.
Print Assumptions C11_directive_states_are_the_pure_models.

(* the hypotheses are met by the real defaults (eleven flags, the REQUIRES set in cell 0); a run that leaves an
   unmet REQUIRES and SKIP switched on does not change what the next run goes through *)
Theorem C11_refinement_hypotheses_satisfiable :
  abs_dict [[]] demo_defaults = DEFAULT_RUNTIME_STATE /\
  (forall c, In c (cells demo_defaults) -> (c < length ([[]] : heap))%nat) /\
  let dirty := [([], [[HE_set false true K_REQUIRES [120%N]; HE_assign false K_SKIP true]])] in
  run_trace (exec_history [[]] demo_defaults dirty) demo_defaults [] [[HE_set true true K_REQUIRES [121%N]]]
  = run_trace [[]] demo_defaults [] [[HE_set true true K_REQUIRES [121%N]]].
Proof. exact demo_defaults_ok. Qed.
Print Assumptions C11_refinement_hypotheses_satisfiable.
