(* C02 — Got/want verdicts are exact: no false pass, no false fail.
   Model: Model/RunLoop.v (DocTest.run, DoctestPart.check, _post_run) over Model/Checker.v;
   what executing a part prints/returns/raises is an oracle (every oracle is covered). *)
From XD Require Import Model.RunLoop Proofs.RunWant Proofs.RunDecide Proofs.RunProofs.

(* the texts a want is compared with are exactly: for every k, the last k outputs produced
   since the previous want followed by the part's own output, joined *)
Theorem C02_candidates : forall um got c,
  In c (trailing_candidates um got) <-> Candidate um got c.
Proof. exact candidates_spec. Qed.
Print Assumptions C02_candidates.

(* a want is satisfied iff some such trailing portion, or the repr of the value, matches *)
Theorem C02_want_iff : forall fl want um got ev, ReprSafe ev ->
  (part_check fl want um got ev = GW_ok <-> exists c, Candidate um got c /\ CandOK fl want ev c).
Proof. exact part_check_ok_iff. Qed.
Print Assumptions C02_want_iff.

(* a mismatch verdict means that NO trailing portion of the output matches and the repr does not *)
Theorem C02_mismatch_means_nothing_matches : forall fl want um got ev,
  part_check fl want um got ev = GW_gotwant ->
  (forall c, Candidate um got c -> c <> [] -> check_output fl c want = false) /\
  (forall r, ev = EvalRepr r -> check_output fl r want = false).
Proof.
  intros fl want um got ev H. rewrite part_check_gotwant_iff in H. split.
  - intros c Hc Hne. specialize (H c Hc). unfold check_got_vs_want in H.
    destruct c as [|x c]; [congruence|]. destruct ev as [|r|], (check_output fl (x :: c) want); cbn in H; congruence.
  - intros r ->. specialize (H got (candidate_last um got)). unfold check_got_vs_want in H.
    destruct (is_empty got), (check_output fl r want), (check_output fl got want); congruence.
Qed.
Print Assumptions C02_mismatch_means_nothing_matches.

(* code without a want never fails because of what it prints or returns; its output is buffered *)
Theorem C02_no_want_never_fails : forall requires_met cfg oc s i p rs' out ev,
  Ready requires_met cfg s p rs' -> oc i = O_ok out ev -> part_want p = None ->
  let s' := step requires_met cfg oc s i p in
  r_end s' = E_running /\ r_failed s' = r_failed s /\
  r_unmatched s' = r_unmatched s ++ [out] /\ r_executed s' = r_executed s ++ [i] /\
  r_checked s' = r_checked s /\ r_logged s' = r_logged s ++ [(i, out)].
Proof. exact step_no_want. Qed.
Print Assumptions C02_no_want_never_fails.

(* an executed part with a want: the loop goes on (buffer cleared) iff the want is satisfied,
   otherwise the doctest fails with a got/want error attributed to that part *)
Theorem C02_want_decides : forall requires_met cfg oc s i p rs' out ev want,
  Ready requires_met cfg s p rs' -> oc i = O_ok out ev -> part_want p = Some want ->
  IGNORE_WANT (flags_of rs') = false -> ReprSafe ev ->
  let s' := step requires_met cfg oc s i p in
  ((exists c, Candidate (r_unmatched s) out c /\ CandOK (flags_of rs') want ev c) ->
     r_end s' = E_running /\ r_failed s' = r_failed s /\ r_unmatched s' = []) /\
  (~ (exists c, Candidate (r_unmatched s) out c /\ CandOK (flags_of rs') want ev c) ->
     r_failed s' = Some (Some i, F_gotwant) /\ r_end s' <> E_running).
Proof. exact step_want_iff. Qed.
Print Assumptions C02_want_decides.

(* fail-stop: every part before the failing one was visited, none after it *)
Theorem C02_fail_stop : forall requires_met cfg oc ps i f,
  let st := run_parts requires_met cfg oc (init_state cfg) 0 ps in
  r_failed st = Some (Some i, f) ->
  (i < length ps)%nat /\
  (forall j, In j (r_executed st) \/ In j (r_skipped st) -> (j <= i)%nat) /\
  (forall j, (j < i)%nat -> In j (r_executed st) \/ In j (r_skipped st)).
Proof. exact fail_stop. Qed.
Print Assumptions C02_fail_stop.

(* passed / failed / skipped are mutually exclusive and exhaustive *)
Theorem C02_exactly_one : forall requires_met cfg oc ps sm st,
  run requires_met cfg oc ps = R_summary sm st ->
  (s_passed sm = true /\ s_failed sm = false /\ s_skipped sm = false) \/
  (s_passed sm = false /\ s_failed sm = true /\ s_skipped sm = false) \/
  (s_passed sm = false /\ s_failed sm = false /\ s_skipped sm = true).
Proof. exact summary_exactly_one. Qed.
Print Assumptions C02_exactly_one.

(* a doctest passes exactly when no failure was recorded and not every part was skipped *)
Theorem C02_pass_iff : forall requires_met cfg oc ps sm st,
  run requires_met cfg oc ps = R_summary sm st ->
  (s_passed sm = true <-> r_failed st = None /\ length (r_skipped st) <> length ps).
Proof.
  intros requires_met cfg oc ps sm st H. apply run_summary_inv in H as (-> & -> & _). unfold post_run. cbn.
  rewrite andb_true_iff, !negb_true_iff, Nat.eqb_neq.
  destruct (r_failed (final requires_met cfg oc ps)); intuition congruence.
Qed.
Print Assumptions C02_pass_iff.

(* a doctest in which nothing ran is never reported as passed *)
Theorem C02_passed_means_something_ran : forall requires_met cfg oc ps sm st,
  run requires_met cfg oc ps = R_summary sm st -> s_passed sm = true -> r_executed st <> [].
Proof.
  intros requires_met cfg oc ps sm st H Hp. destruct (proj1 (C02_pass_iff _ _ _ _ _ _ H) Hp) as [Fn Ln].
  apply run_summary_inv in H as (-> & _ & [E|E]); [|exact (quiet_end_ran _ _ _ ps Fn E)].
  destruct (run_cases requires_met cfg oc ps) as [G|(s & k & p & _ & _ & _ & Hend)]; [|contradiction].
  intros X. pose proof (dealt_length _ _ _ (go_dealt _ _ G)) as C. rewrite X in C. cbn in C. lia.
Qed.
Print Assumptions C02_passed_means_something_ran.
