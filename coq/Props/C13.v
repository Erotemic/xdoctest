(* C13 — Parsing partitions the docstring: each line is text, source or want, once. *)
From XD Require Import Model.Parser Spec.Partition Spec.Labels Proofs.ParserProofs Proofs.ChunkProofs
  Proofs.GroupLocal Proofs.LabelProofs.

(* the labeller emits exactly one labelled line per docstring line, in order, each
   identical to the input line up to the display prefix inserted by the triple-quote
   hack -- for EVERY behaviour of the tokenizer oracle (also one that raises) *)
Theorem C13_label_partition :
  forall bal s ll, label_lines bal s = Ok ll ->
  length ll = length (srclines s) /\ Forall2 SameLineUpToHack ll (srclines s).
Proof. exact label_lines_partition. Qed.
Print Assumptions C13_label_partition.

(* the same, from any state of the labeller (what the induction really shows) *)
Theorem C13_label_partition_any_state :
  forall bal lines st ll, label_go bal lines st = Ok ll ->
  length ll = length lines /\ Forall2 SameLineUpToHack ll lines.
Proof. intros bal lines st ll. apply label_go_partition. Qed.
Print Assumptions C13_label_partition_any_state.

(* grouping keeps every labelled line, once, in order *)
Theorem C13_group_partition :
  forall ll gs, group_lines ll = Ok gs -> flatten_chunks gs = map snd ll.
Proof. exact group_lines_partition. Qed.
Print Assumptions C13_group_partition.

(* the three passes separately *)
Theorem C13_pass1_keeps_lines :
  forall items, concat (map snd (pass1 None items None [])) = items.
Proof. intros items. rewrite pass1_groups1. apply groups1_lines. Qed.
Print Assumptions C13_pass1_keeps_lines.

Theorem C13_pass2_keeps_lines :
  forall groups, concat (map snd (pass2 None groups None [])) = concat (map snd groups).
Proof. intros groups. rewrite pass2_groups2. apply groups2_lines. Qed.
Print Assumptions C13_pass2_keeps_lines.

(* the parts made from one source/want chunk tile its source lines: ascending boundaries from 0, part j holds
   the lines between boundary j and j+1 (prompted and de-prompted alike), starts at the chunk's line + boundary j,
   and only the last part carries the want -- for EVERY answer of the tokenizer, ast and directive oracles *)
Theorem C13_parts_tile_chunk : forall o raw_src raw_want lineno ps,
  package_chunk o raw_src raw_want lineno = Ok ps ->
  PartsTile lineno (dedent_chunk raw_src) (dedent_want raw_src raw_want) ps.
Proof. exact package_chunk_tiles. Qed.
Print Assumptions C13_parts_tile_chunk.

(* hence: source lines, executable lines and want lines of a chunk are the concatenation of its parts', in order *)
Theorem C13_chunk_partition : forall o raw_src raw_want lineno ps,
  package_chunk o raw_src raw_want lineno = Ok ps ->
  concat (map orig_lines ps) = dedent_chunk raw_src /\
  concat (map exec_lines ps) = map (skipn 4) (dedent_chunk raw_src) /\
  concat (map want_lines ps) = dedent_want raw_src raw_want.
Proof. exact package_chunk_partition. Qed.
Print Assumptions C13_chunk_partition.

(* a boundary list that starts at 0 and ascends really tiles: no line lost, duplicated or reordered *)
Theorem C13_tiles_cover : forall (l : list str) bs,
  hd_error bs = Some O -> Ascending bs -> concat (tiles bs l) = l.
Proof. exact (@tiles_concat str). Qed.
Print Assumptions C13_tiles_cover.

(* end to end: whenever parsing succeeds, docstring lines -> labelled lines -> chunks -> items is a partition
   at every stage, and every chunk becomes one text item or the parts that tile it, at the right line *)
Theorem C13_parse_partition : forall o s items,
  parse o s = Parsed items ->
  exists ll gs,
    length ll = length (srclines (normalize_docstring s)) /\
    Forall2 SameLineUpToHack ll (srclines (normalize_docstring s)) /\
    flatten_chunks gs = map snd ll /\
    Tiled 0 gs items.
Proof. exact parse_partition. Qed.
Print Assumptions C13_parse_partition.

(* "each part records the index of its first line": the parts of a chunk that starts at docstring line n lie back
   to back from n to n + (number of source lines), provided the ast oracle reports statements on lines of the
   source it was given (AstInRange; CPython's ast does) *)
Theorem C13_offsets_are_line_indices : forall o raw_src raw_want lineno ps,
  AstInRange o -> package_chunk o raw_src raw_want lineno = Ok ps ->
  Consecutive lineno ps (lineno + length raw_src).
Proof. exact package_chunk_consecutive. Qed.
Print Assumptions C13_offsets_are_line_indices.

(* end to end: the items are laid out over the labelled lines (one per docstring line) chunk after chunk, each
   part's line offset being the position of its first line *)
Theorem C13_parse_offsets : forall o s items,
  AstInRange o -> parse o s = Parsed items ->
  exists (ll : list (label * str)) gs,
    length ll = length (srclines (normalize_docstring s)) /\
    flatten_chunks gs = map snd ll /\
    LaidOut 0 gs items.
Proof.
  intros o s items HR H. apply parse_parsed in H. destruct H as (ll & gs & L & G & P). exists ll, gs.
  destruct (label_lines_partition _ _ _ L) as [A _].
  repeat split; [exact A | apply group_lines_partition; exact G | apply package_groups_laid_out with (o := o); assumption].
Qed.
Print Assumptions C13_parse_offsets.

(* non-vacuity: an in-range oracle exists, and on a two-statement chunk with a want it yields two parts at
   consecutive lines, the want on the second *)
Theorem C13_hypotheses_satisfiable :
  AstInRange demo_oracle /\
  exists p1 p2, package_chunk demo_oracle demo_src demo_want 7 = Ok [p1; p2] /\
    line_offset p1 = 7%nat /\ line_offset p2 = 8%nat /\ want_lines p1 = [] /\ want_lines p2 = demo_want /\
    Consecutive 7 [p1; p2] 9.
Proof. exact (conj demo_oracle_in_range demo_chunk_two_parts). Qed.
Print Assumptions C13_hypotheses_satisfiable.

(* the second sentence of the property, for well-formed docstrings (Spec/Labels.v): a docstring assembled from
   blocks -- prose; examples whose lines share one indentation, made of statements (a '>>> ' line plus the '... ' /
   '>>> ' lines the tokenizer oracle needs to see the statement complete) followed by non-blank want lines; prose
   after an example starting with a blank line; an example directly behind source lines having their indentation --
   is labelled exactly as intended: prose is text, statement lines are source (continuation lines from the first
   '...' line on), the lines that follow are the want.  The excluded layouts are the known findings F8a/F8b. *)
Theorem C13_labels_as_intended : forall bal bs s,
  srclines s = concat (map block_lines bs) -> Chain bal TEXT O bs ->
  label_lines bal s = Ok (intended bs).
Proof. exact labels_as_intended. Qed.
Print Assumptions C13_labels_as_intended.

(* from any state of the labeller a chain of blocks may follow *)
Theorem C13_labels_as_intended_from : forall bal bs prev pind, Chain bal prev pind bs ->
  label_go bal (concat (map block_lines bs)) (mkL prev pind None) = Ok (intended bs).
Proof. exact labels_as_intended_from. Qed.
Print Assumptions C13_labels_as_intended_from.

(* non-vacuity: prose, an example with a two-line statement, a one-line statement and a want, prose again, under an
   oracle that calls a statement complete when its brackets are closed *)
Theorem C13_labels_example :
  map fst (intended demo_blocks) = [TEXT; TEXT; DSRC; DCNT; DSRC; WANT; TEXT; TEXT] /\
  label_go demo_bal (concat (map block_lines demo_blocks)) (mkL TEXT O None) = Ok (intended demo_blocks).
Proof. exact demo_labels. Qed.
Print Assumptions C13_labels_example.

(* the chunks follow the labels: the labelled lines, in order, are cut into chunks each of which is a run of text lines,
   or a non-empty run of source/continuation lines followed by a (possibly empty) run of want lines -- so "the lines
   labelled want are the want of the source lines before them" holds for every labelling *)
Theorem C13_chunks_follow_labels : forall ll gs, group_lines ll = Ok gs ->
  exists lcs, gs = map forget lcs /\ concat (map litems lcs) = ll /\ Forall LChunkOK lcs.
Proof. exact group_lines_labelled. Qed.
Print Assumptions C13_chunks_follow_labels.

(* grouping is local: where the kind of line changes (text / source / want) and the next line is not a want, the chunks
   of the whole are the chunks of what is above followed by the chunks of what is below *)
Theorem C13_grouping_local : forall A (yi : label * str) B' d,
  A <> [] -> class_of (fst (last A d)) <> class_of (fst yi) -> fst yi <> WANT ->
  group_lines (A ++ yi :: B') = both (group_lines A) (group_lines (yi :: B')).
Proof. exact group_lines_app. Qed.
Print Assumptions C13_grouping_local.

(* a run of text lines is one text chunk *)
Theorem C13_text_run_one_chunk : forall (t : label * str) T, AllClass KText (t :: T) ->
  group_lines (t :: T) = Ok [TextChunk (map snd (t :: T))].
Proof. exact group_lines_text. Qed.
Print Assumptions C13_text_run_one_chunk.

(* the parser's other mode, DoctestParser(simulate_repl=True) (every statement a part of its own): the parts of a chunk tile
   its lines just the same (boundaries: 0 and the statement starts after the first), and the docstring is partitioned *)
Theorem C13_repl_chunk_tiles : forall o raw_src raw_want lineno ps,
  package_chunk_repl o raw_src raw_want lineno = Ok ps ->
  PartsTile lineno (dedent_chunk raw_src) (dedent_want raw_src raw_want) ps.
Proof. exact package_chunk_repl_tiles. Qed.
Print Assumptions C13_repl_chunk_tiles.

Theorem C13_repl_partition : forall o s items,
  parse_repl o s = Parsed items ->
  exists ll gs,
    length ll = length (srclines (normalize_docstring s)) /\
    Forall2 SameLineUpToHack ll (srclines (normalize_docstring s)) /\
    flatten_chunks gs = map snd ll /\
    Tiled 0 gs items.
Proof. exact parse_repl_partition. Qed.
Print Assumptions C13_repl_partition.
