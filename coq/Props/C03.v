(* C03 — Exceptions are never swallowed; only a matching expected traceback passes.
   Model: the O_raise arm of RunLoop.step with Checker.check_exception / extract_exc_want. *)
From XD Require Import Model.RunLoop Proofs.RunDecide Proofs.RunProofs.

(* no want: the doctest fails with that exception, at that part *)
Theorem C03_no_want_fails : forall requires_met cfg oc s i p rs' out last,
  Ready requires_met cfg s p rs' -> oc i = O_raise out last true -> part_want p = None ->
  fails_with (step requires_met cfg oc s i p) i F_exception.
Proof. exact step_raise_no_want. Qed.
Print Assumptions C03_no_want_fails.

(* a want that is not a traceback block never hides an exception *)
Theorem C03_nontraceback_fails : forall requires_met cfg oc s i p rs' out last want,
  Ready requires_met cfg s p rs' -> oc i = O_raise out last true -> part_want p = Some want ->
  extract_exc_want want = None ->
  fails_with (step requires_met cfg oc s i p) i F_exception.
Proof. exact step_raise_non_traceback. Qed.
Print Assumptions C03_nontraceback_fails.

(* a traceback want: the run goes on (nothing recorded) iff the final line matches under the active flags, or - with
   IGNORE_EXCEPTION_DETAIL - the type does; otherwise the doctest fails with a got/want error, not the raised exception *)
Theorem C03_traceback_iff : forall requires_met cfg oc s i p rs' out last hf want msg,
  Ready requires_met cfg s p rs' -> oc i = O_raise out last hf -> part_want p = Some want ->
  extract_exc_want want = Some msg ->
  let s' := step requires_met cfg oc s i p in
  (ExcMatches (flags_of rs') last msg ->
     r_end s' = E_running /\ r_failed s' = r_failed s /\ r_executed s' = r_executed s ++ [i] /\
     r_unmatched s' = []) /\            (* as every passing check does (fix F25) *)
  (~ ExcMatches (flags_of rs') last msg -> fails_with s' i F_gotwant).
Proof. exact step_raise_traceback. Qed.
Print Assumptions C03_traceback_iff.

(* ExcMatches is what check_exception computes (msg: what extract_exc_want finds below the header and the stack) *)
Theorem C03_exception_match_spec : forall fl last want msg,
  extract_exc_want want = Some msg ->
  (check_exception fl last want = Some true <-> ExcMatches fl last msg) /\
  (check_exception fl last want = Some false <-> ~ ExcMatches fl last msg).
Proof. exact check_exception_spec. Qed.
Print Assumptions C03_exception_match_spec.

(* a traceback want on code that does not raise is compared like any other want (so it fails unless the output looks
   like the traceback) *)
Theorem C03_no_raise_traceback_want : forall requires_met cfg oc s i p rs' out ev want,
  Ready requires_met cfg s p rs' -> oc i = O_ok out ev -> part_want p = Some want ->
  IGNORE_WANT (flags_of rs') = false ->
  let s' := step requires_met cfg oc s i p in
  r_executed s' = r_executed s ++ [i] /\ r_checked s' = r_checked s ++ [i] /\
  match part_check (flags_of rs') want (r_unmatched s) out ev with
  | GW_ok => r_end s' = E_running /\ r_failed s' = r_failed s /\ r_unmatched s' = []
  | GW_gotwant => r_failed s' = Some (Some i, F_gotwant) /\ r_end s' <> E_running
  | GW_extract_repr => r_failed s' = Some (Some i, F_extract_repr) /\ r_end s' <> E_running
  | GW_repr_escapes => r_failed s' = Some (Some i, F_exception) /\ r_end s' <> E_running
  end.
Proof. exact step_want. Qed.
Print Assumptions C03_no_raise_traceback_want.

(* a failure stops the loop (C02_fail_stop) *)
Theorem C03_fail_stop : forall requires_met cfg oc ps i f,
  let st := run_parts requires_met cfg oc (init_state cfg) 0 ps in
  r_failed st = Some (Some i, f) ->
  (i < length ps)%nat /\
  (forall j, In j (r_executed st) \/ In j (r_skipped st) -> (j <= i)%nat) /\
  (forall j, (j < i)%nat -> In j (r_executed st) \/ In j (r_skipped st)).
Proof. exact fail_stop. Qed.
Print Assumptions C03_fail_stop.

(* after an expected exception the following parts are still visited: a loop still running at the end has recorded no
   failure and visited every part *)
Theorem C03_no_failure_all_visited : forall requires_met cfg oc ps,
  let st := run_parts requires_met cfg oc (init_state cfg) 0 ps in
  r_end st = E_running ->
  r_failed st = None /\ forall j, (j < length ps)%nat -> In j (r_executed st) \/ In j (r_skipped st).
Proof. exact running_all_visited. Qed.
Print Assumptions C03_no_failure_all_visited.
