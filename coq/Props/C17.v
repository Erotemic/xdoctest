(* C17 — Module name <-> path resolution agrees with Python's import system.
   Model: Model/FS.v (util_import: check_dpath/_isvalid, the sys.path loop, normalize_modpath, split_modpath,
   modpath_to_modname) over an abstract file system.  Spec: Spec/ImportResolve.v. *)
From XD Require Import Model.FS Spec.ImportResolve Proofs.FSProofs.

(* resolving a dotted name under a root finds exactly what the regular import resolution finds (nothing when it finds
   nothing), for every tree and every name of any depth *)
Theorem C17_resolve_iff : forall fs, WFfs fs -> forall parts d,
  check_dpath fs d parts = resolve fs d parts.
Proof. exact check_dpath_resolve. Qed.
Print Assumptions C17_resolve_iff.

(* the loop over sys.path: the same resolution root by root (resolve_roots) *)
Theorem C17_syspath_resolve : forall fs, WFfs fs -> forall roots parts,
  syspath_modname_to_modpath fs roots parts = resolve_roots fs roots parts.
Proof. exact syspath_resolve. Qed.
Print Assumptions C17_syspath_resolve.

(* ... the first root in which the name resolves wins *)
Theorem C17_first_root_wins : forall fs, WFfs fs -> forall roots1 d roots2 parts p,
  (forall r, In r roots1 -> resolve fs r parts = None) -> resolve fs d parts = Some p ->
  syspath_modname_to_modpath fs (roots1 ++ d :: roots2) parts = Some p.
Proof.
  intros fs W roots1 d roots2 parts p H1 H2. rewrite (syspath_resolve fs W). induction roots1 as [|r rs IH]; simpl.
  - rewrite H2. reflexivity.
  - rewrite (H1 r (or_introl eq_refl)). apply IH. intros r' Hr'. apply H1. right. exact Hr'.
Qed.
Print Assumptions C17_first_root_wins.

(* converting the found path back gives the same dotted name (the search root must not itself be a package) *)
Theorem C17_roundtrip : forall fs, WFfs fs -> forall root parts p,
  resolve fs root parts = Some p -> exists_ fs (root ++ [INIT]) = false -> PlainNames parts ->
  modpath_to_modname fs p = Some parts.
Proof. exact roundtrip. Qed.
Print Assumptions C17_roundtrip.

(* splitting a module path: the two pieces join back to the path, the directory holds no __init__.py, and (every
   directory in between being a package) it is the expected base *)
Theorem C17_split_joins : forall fs p d r, p <> [] -> split_modpath fs p = Some (d, r) -> d ++ r = p.
Proof.
  intros fs p d r NE H. unfold split_modpath in H.
  destruct (rev p) as [|fname rd] eqn:R; apply (f_equal (@rev _)) in R; rewrite rev_involutive in R; subst p.
  - contradiction NE. reflexivity.
  - exact (proj1 (climb_result _ _ _ _ _ H)).
Qed.
Print Assumptions C17_split_joins.

Theorem C17_split_spec : forall fs base mids fname,
  (forall k, (0 < k <= length mids)%nat -> exists_ fs ((base ++ firstn k mids) ++ [INIT]) = true) ->
  exists_ fs (base ++ [INIT]) = false ->
  split_modpath fs (base ++ mids ++ [fname]) = Some (base, mids ++ [fname]).
Proof. exact split_modpath_spec. Qed.
Print Assumptions C17_split_spec.

(* non-vacuity: a tree with a package a (with __init__.py), a/b.py, a plain directory c with c/d.py *)
Example C17_example :
  let A := [97%N] in let B := [98%N] in let C := [99%N] in let D := [100%N] in
  let fs := fs_of_list [([A], true); ([A; INIT], false); ([A; B ++ DOTPY], false);
                        ([C], true); ([C; D ++ DOTPY], false)] in
  check_dpath fs [] [A; B] = Some [A; B ++ DOTPY] /\
  check_dpath fs [] [C; D] = None /\
  modpath_to_modname fs [A; B ++ DOTPY] = Some [A; B] /\
  split_modpath fs [C; D ++ DOTPY] = Some ([C], [D ++ DOTPY]).
Proof. vm_compute. repeat split. Qed.
